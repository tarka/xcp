(* Translator tie (see ExtractedOk.v): the steps of finalise_copy with their guards and order, the device number of copy_node, the
   Operation::Special arm of both worker loops. *)
From XcpModel Require Import Base Meta Extracted.

Definition step_enabled (c : fin_cfg) (s : N * bool) : bool :=
  let flag := if fst s =? 6 then c_ownership c else if fst s =? 8 then c_no_perms c
              else if fst s =? 9 then c_no_timestamps c else c_fsync c in
  xorb (snd s) flag.
Definition actions_of_step (k : N) (src : meta) : list fin_action :=
  if k =? 6 then [FChown (m_uid src) (m_gid src)]
  else if k =? 8 then map (fun kv => FSetxattr (fst kv) (snd kv)) (m_xattr src) ++ [FChmod (m_mode src)]
  else if k =? 9 then [FUtimens (m_atime src) (m_mtime src)]
  else [FFsync].

(* the model's finalise_actions is: run the extracted steps, in the extracted order, each under its extracted guard *)
Theorem x_finalise_order_ok : forall c src,
  finalise_actions c src =
  flat_map (fun s => if step_enabled c s then actions_of_step (fst s) src else []) x_finalise_order.
Proof. intros [np nt ow fs] src. destruct ow, np, nt, fs; reflexivity. Qed.

(* copy_node takes the device number from st_rdev *)
Theorem x_copy_node_uses_rdev_ok : x_copy_node_uses_rdev = 1.
Proof. reflexivity. Qed.

Definition special_code (r : option (list sp_action)) : N :=
  match r with None => 0 | Some [SpMknod _] => 1 | Some [SpUnlink; SpMknod _] => 2 | Some _ => 3 end.

Theorem x_special_ok : forall nc ex same umask src,
  special_code (special_worker nc ex same umask src) = x_parfile_special nc ex same /\
  special_code (special_worker nc ex same umask src) = x_parblock_special nc ex same.
Proof. intros [|] [|] [|] umask src; split; reflexivity. Qed.
