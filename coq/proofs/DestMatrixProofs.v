From XcpModel Require Import DestMatrix Meta Ops.
From XcpProofs Require Import OpsProofs.
From Coq Require Import List.
Import ListNotations.

(* C08: with no-clobber, whatever exists at the path (lstat) is left alone and the run fails — every source kind, every
   kind of existing entry, a dangling link included *)
Theorem noclobber_refuses_everything_existing : forall s d, d <> DAbsent -> dest_outcome s d ONoClobber = Refused.
Proof. intros s [] H; try reflexivity. contradiction. Qed.

(* C02: an absent path always receives an entry of the source's kind *)
Theorem absent_is_created : forall s o, dest_outcome s DAbsent o = Created.
Proof. intros [] []; reflexivity. Qed.

(* C07: the only cell that can wait is a regular file opened onto a FIFO without options (as cp) *)
Theorem blocks_only_file_onto_fifo : forall s d o, dest_outcome s d o = Blocks -> s = SFile /\ d = DSpecial /\ o = ONone.
Proof. intros [] [] [] H; try discriminate H; auto. Qed.

(* C02 / C03: nothing is ever created or written THROUGH a dangling link *)
Theorem dangling_is_never_written_through : forall s o, dest_outcome s DDangling o = Refused.
Proof. intros [] []; reflexivity. Qed.

(* C02 (frame): a directory found at the path is never replaced, removed or renamed away — it is merged into (by a
   directory source) or the run is refused; so the entries below it that no source maps onto stay where they are *)
Theorem directory_is_merged_or_kept : forall s d o, is_real_dir d = true ->
  dest_outcome s d o = Merged \/ dest_outcome s d o = Refused.
Proof. intros s d o. destruct d; intros H; try discriminate H; destruct s, o; auto. Qed.

(* C09: with numbered backups a regular file never destroys the entry it replaces: it is renamed to a backup name,
   whatever it is (file, link, node) — or the run is refused *)
Theorem backup_preserves_what_a_file_replaces : forall d, d <> DAbsent ->
  dest_outcome SFile d OBackup = CreatedBackedUp \/ dest_outcome SFile d OBackup = Refused.
Proof. intros [] H; cbn; auto. contradiction. Qed.

(* C14: a special file replaces a file, a link or a node (never through the link), and is refused by a directory *)
Theorem special_replaces_or_is_refused : forall d o, dest_outcome SSpecial d o = Created \/ dest_outcome SSpecial d o = Refused.
Proof. intros [] []; cbn; auto. Qed.

(* 4 source kinds x 8 states of the destination x 3 options *)
Theorem outcome_cells : length (flat_map (fun s => flat_map (fun d => map (dest_outcome s d) all_dopt) all_dstate) all_skind) = 96%nat.
Proof. reflexivity. Qed.

(* regular files: whenever the model of CopyHandle::new (Ops.copy_actions_dd, fed with what the cell says about the
   destination entry) refuses, the cell is Refused *)
Theorem file_row_refusals_agree : forall d o fc src dst e,
  o <> ONoClobber -> ce_dst_exists e = exists_follow d -> ce_same_file e = false ->
  snd (copy_actions_dd (lexists d && negb (exists_follow d)) (is_real_dir d) fc src dst e) = false ->
  dest_outcome SFile d o = Refused.
Proof.
  intros d o fc src dst e Ho He Hs. rewrite copy_refusals, He, Hs.
  destruct d, o; try contradiction; try reflexivity; discriminate.
Qed.

(* ... and on the entries that model does not refuse (seen through links, not a directory), where it renames the old entry
   away once a backup number is chosen, the cell under backups is CreatedBackedUp *)
Theorem file_row_backup_agrees : forall d, exists_follow d = true -> is_real_dir d = false ->
  dest_outcome SFile d OBackup = CreatedBackedUp.
Proof. intros [] He Hd; try discriminate He; try discriminate Hd; reflexivity. Qed.

(* special files: the cell is what Meta.special_worker does with Path::exists() of the entry, except that a directory
   cannot be unlinked and that an entry exists() does not see (a dangling link) makes mknod fail *)
Theorem special_row_agrees : forall d o umask src,
  o <> ONoClobber -> is_real_dir d = false -> (lexists d = exists_follow d) ->
  (dest_outcome SSpecial d o = Refused <-> special_worker false (exists_follow d) false umask src = None).
Proof.
  intros d o umask src Ho Hd Hl. unfold special_worker.
  destruct d, o; try contradiction; try discriminate; cbn; split; intros H; (reflexivity || discriminate H).
Qed.

Theorem parent_missing_refused_unless_directory : forall s, s <> SDir -> parent_missing_outcome s = Refused.
Proof. intros [] H; try reflexivity. contradiction. Qed.

(* the calls that would have to create the entry there are steps whose failure fails the run (Ops.fault_effect_of): the cell
   is `Refused` for exactly the source kinds whose creating call cannot make the missing ancestors *)
Theorem parent_missing_is_a_failed_step : forall k,
  fault_effect_of (ACreateTrunc k) = FxError /\ fault_effect_of (ASymlink k []) = FxError /\ fault_effect_of (AMknod k) = FxError.
Proof. intros k. repeat split; reflexivity. Qed.
