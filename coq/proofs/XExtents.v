(* Translator tie (see ExtractedOk.v): libfs merge_extents, map_extents, probably_sparse, FiemapReq::new, the errno class and
   the page size of fiemap. *)
From XcpModel Require Import Base Extents Sparse Extracted.
From XcpProofs Require Import BaseProofs.

(* the epilogue of the loop: `if let Some(p) = prev { merged.push(p) }` *)
Definition merge_final (st : list extent * option extent) : list extent :=
  let '(merged, prev) := st in match prev with Some p => merged ++ [p] | None => merged end.

Theorem x_merge_extents_ok : forall l, x_merge_extents l = merge_extents l.
Proof.
  intros l. unfold x_merge_extents.
  match goal with |- context [fold_left ?F _ _] => set (F0 := F) end.
  (* from `prev = Some p` on, the loop over l followed by the epilogue pushes merge_go p l *)
  assert (forall l merged p, merge_final (fold_left F0 l (merged, Some p)) = merged ++ merge_go p l) as Hgo.
  { clear. induction l as [|e r IH]; intros merged p; cbn [fold_left merge_go]; [reflexivity|].
    unfold F0 at 2. cbv beta iota zeta. destruct (e_start e =? e_end p + 1); rewrite IH; [reflexivity|].
    now rewrite <- app_assoc. }
  destruct l as [|e r]; [reflexivity|]. rewrite <- (Hgo r [] e : _ = merge_extents (e :: r)).
  change (fold_left F0 (e :: r) ([], None)) with (fold_left F0 r ([], Some e)).
  now destruct (fold_left F0 r ([], Some e)) as [m [p|]].
Qed.

Theorem x_map_extents_go_ok : forall fuel fiemap start acc,
  x_map_extents_go fuel fiemap start acc = map_extents_go fuel fiemap start acc.
Proof.
  induction fuel as [|f IH]; intros fiemap start acc; [reflexivity|].
  cbn [x_map_extents_go map_extents_go]. destruct (fiemap start) as [|e|pg]; [reflexivity..|].
  destruct pg as [|x pg]; [reflexivity|].
  change (N.of_nat (length (x :: pg)) =? 0) with false. cbv iota.
  rewrite (nth_error_last (x :: pg) x) by discriminate. rewrite (fold_left_push to_ext).
  destruct (fe_last (last (x :: pg) x)); [reflexivity|]. apply IH.
Qed.

Theorem x_map_extents_ok : forall fuel fiemap, x_map_extents fuel fiemap = map_extents fuel fiemap.
Proof. intros. apply x_map_extents_go_ok. Qed.

Theorem x_probably_sparse_ok : forall blocks size, x_probably_sparse blocks size = probably_sparse blocks size.
Proof. reflexivity. Qed.

Theorem x_fiemap_unsupported_ok : x_fiemap_unsupported_errnos = [EOPNOTSUPP].
Proof. reflexivity. Qed.

Theorem x_fiemap_page_size_ok : x_fiemap_page_size = N.of_nat FIEMAP_PAGE_SIZE.
Proof. reflexivity. Qed.

(* FiemapReq::new: every request (the first, and each later page, whose start only moves forward) asks the kernel for
   the WHOLE rest of the file: no offset a file can have (< 2^63, the largest loff_t) lies beyond start + length, and no
   flag restricts what is reported *)
Theorem x_fiemap_request_covers_the_rest_of_the_file : forall start off,
  x_fiemap_req_start <= start -> start <= off -> off < 2 ^ 63 -> off < start + x_fiemap_req_length.
Proof. intros start off _ _ H. unfold x_fiemap_req_length. lia. Qed.
Theorem x_fiemap_request_starts_at_zero_unflagged : x_fiemap_req_start = 0 /\ x_fiemap_req_flags = 0.
Proof. split; reflexivity. Qed.
