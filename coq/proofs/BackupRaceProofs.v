From XcpModel Require Import BackupRace.
From Coq Require Import NArith List.
Import ListNotations.
Open Scope N_scope.

(* repaired (a649b3d `fix: numbered backups are chosen, made and replaced in one step`): whichever worker goes first, the
   directory ends up the same, with BOTH old versions preserved under fresh names and both new versions in place *)
Theorem locked_overwrites_commute : forall oldf oldb newf newb,
  snapshot (run newf newb (d_init oldf oldb) sched_AB) = snapshot (run newf newb (d_init oldf oldb) sched_BA) /\
  snapshot (run newf newb (d_init oldf oldb) sched_AB) = [Some newf; Some newb; Some oldf; None; Some oldb; None].
Proof. intros. split; reflexivity. Qed.

(* before the repair: the scan of A in the gap between B's rename and B's create picks f.~1~ for the backup of f, and
   B's create then truncates it — the old version of f is lost, and the outcome differs from the sequential ones *)
Theorem unlocked_gap_loses_a_version : forall oldf oldb newf newb,
  snapshot (run newf newb (d_init oldf oldb) sched_gap) = [Some newf; Some newb; None; None; Some oldb; None].
Proof. intros. reflexivity. Qed.

Corollary unlocked_outcome_depends_on_schedule : exists oldf oldb newf newb,
  snapshot (run newf newb (d_init oldf oldb) sched_gap) <> snapshot (run newf newb (d_init oldf oldb) sched_AB).
Proof. exists 1, 2, 3, 4. discriminate. Qed.
