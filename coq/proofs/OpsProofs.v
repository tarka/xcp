From XcpModel Require Import Base Meta Ops.
From XcpProofs Require Import BaseProofs.

Lemma all_owned dst l : Forall (fun a => Forall (owned dst) (mutated a)) l ->
  forall a k, In a l -> In k (mutated a) -> owned dst k.
Proof. intros H a k Ha Hk. rewrite Forall_forall in H. specialize (H a Ha). rewrite Forall_forall in H. exact (H k Hk). Qed.

(* every key a copy operation can change is owned by the operation (its
   target or that target's backup name); sources are never among them *)
Theorem copy_mutations_owned fc src dst e a k :
  In a (fst (copy_actions fc src dst e)) -> In k (mutated a) -> owned dst k.
Proof.
  apply all_owned. unfold copy_actions. destruct (ce_dst_exists e && ce_same_file e); cbn [fst]; by_segments; reflexivity.
Qed.

Corollary copy_never_mutates_source fc src dst e a k :
  In a (fst (copy_actions fc src dst e)) -> In k (mutated a) -> is_src k = false.
Proof.
  intros Ha Hk. pose proof (copy_mutations_owned fc src dst e a k Ha Hk) as H.
  destruct k; [destruct H|reflexivity|reflexivity].
Qed.

(* kill at any instant = any prefix of the action list: still only owned keys *)
Theorem copy_prefix_mutations_owned fc src dst e n a k :
  In a (firstn n (fst (copy_actions fc src dst e))) -> In k (mutated a) -> owned dst k.
Proof.
  intros Ha Hk. apply (copy_mutations_owned fc src dst e a k); [|exact Hk].
  rewrite <- (firstn_skipn n (fst (copy_actions fc src dst e))). apply in_or_app. now left.
Qed.

Theorem link_special_mutations_owned :
  (forall dst text a k, In a (link_actions dst text) -> In k (mutated a) -> owned dst k) /\
  (forall nc src dst ex same a k, In a (fst (special_actions nc src dst ex same)) -> In k (mutated a) -> owned dst k).
Proof.
  split.
  - intros dst text. apply all_owned. unfold link_actions. by_segments; reflexivity.
  - intros nc src dst ex same. apply all_owned. unfold special_actions.
    destruct ex, nc, same; cbn [fst app]; by_segments; reflexivity.
Qed.

(* when CopyHandle::new refuses: a directory in the way, a dangling link in the way, or the source itself *)
Lemma copy_refusals dg dir fc src dst e :
  snd (copy_actions_dd dg dir fc src dst e) =
  negb (ce_dst_exists e && negb (ce_same_file e) && dir) && negb (negb (ce_dst_exists e) && dg) &&
  negb (ce_dst_exists e && ce_same_file e).
Proof.
  unfold copy_actions_dd, copy_actions_d.
  destruct (ce_dst_exists e && negb (ce_same_file e) && dir); [reflexivity|].
  destruct (negb (ce_dst_exists e) && dg); [reflexivity|]. unfold copy_actions. now destruct (_ && _).
Qed.

(* an alias is refused before ANY mutating action *)
Theorem copy_alias_refused fc src dst e :
  ce_dst_exists e = true -> ce_same_file e = true ->
  snd (copy_actions fc src dst e) = false /\
  forall a, In a (fst (copy_actions fc src dst e)) -> mutated a = [].
Proof.
  intros H1 H2. unfold copy_actions. rewrite H1, H2. cbn [andb fst snd]. split; [reflexivity|].
  apply Forall_forall. by_segments; reflexivity.
Qed.

(* a dangling symbolic link at the destination is refused before any mutating action: nothing is created through it *)
Theorem copy_dangling_refused fc src dst e :
  ce_dst_exists e = false ->
  snd (copy_actions_d true fc src dst e) = false /\
  forall a, In a (fst (copy_actions_d true fc src dst e)) -> mutated a = [].
Proof.
  intros He. unfold copy_actions_d. rewrite He. cbn [negb andb fst snd]. split; [reflexivity|].
  apply Forall_forall. by_segments; reflexivity.
Qed.

Theorem copy_actions_d_otherwise : forall d fc src dst e,
  d = false \/ ce_dst_exists e = true -> copy_actions_d d fc src dst e = copy_actions fc src dst e.
Proof. intros d fc src dst e [->|He]; unfold copy_actions_d; [now rewrite Bool.andb_false_r|now rewrite He]. Qed.

(* a directory found where a regular file is to be written is refused before any mutating action *)
Theorem copy_onto_directory_refused dg fc src dst e :
  ce_dst_exists e = true -> ce_same_file e = false ->
  snd (copy_actions_dd dg true fc src dst e) = false /\
  forall a, In a (fst (copy_actions_dd dg true fc src dst e)) -> mutated a = [].
Proof.
  intros He Hs. unfold copy_actions_dd. rewrite He, Hs. cbn [negb andb fst snd]. split; [reflexivity|].
  apply Forall_forall. by_segments; reflexivity.
Qed.

(* a special file whose existing target is the source node itself (an alias through a symlinked directory) is refused
   before any mutating action: in particular it is not unlinked *)
Theorem special_alias_refused nc src dst :
  snd (special_actions nc src dst true true) = false /\
  forall a, In a (fst (special_actions nc src dst true true)) -> mutated a = [].
Proof.
  unfold special_actions. destruct nc; cbn [fst snd app]; (split; [reflexivity|]);
    apply Forall_forall; by_segments; reflexivity.
Qed.

Fixpoint all_before (p q : sysact -> bool) (l : list sysact) : bool :=
  (* no action satisfying p occurs after an action satisfying q *)
  match l with
  | [] => true
  | a :: r => (if q a then negb (existsb p r) else true) && all_before p q r
  end.

Lemma existsb_app_false {A} (f : A -> bool) a b : existsb f (a ++ b) = false <-> existsb f a = false /\ existsb f b = false.
Proof. rewrite existsb_app. apply orb_false_iff. Qed.

(* the three classes of actions the order theorem speaks of: fsync is a metadata action, and no metadata action
   sizes or writes *)
Lemma fsync_is_meta a : is_meta a = false -> is_fsync a = false.
Proof. now destruct a. Qed.

Lemma meta_not_data a : is_meta a = true -> data_or_sizing a = false.
Proof. now destruct a. Qed.

(* a list made of a part A without metadata actions, a part F' of metadata actions other than fsync, and an optional
   final fsync *)
Lemma phases_order A F' (fs : bool) k :
  Forall (fun a => is_meta a = false) A -> Forall (fun a => is_meta a = true /\ is_fsync a = false) F' ->
  existsb is_meta A = false /\ existsb data_or_sizing (F' ++ if fs then [AFsync k] else []) = false /\
  existsb is_fsync (A ++ F') = false.
Proof.
  intros HA HF. split; [now apply existsb_false_Forall|]. split; apply existsb_false_Forall, Forall_app; split.
  - revert HF. apply Forall_impl. intros a [H _]. now apply meta_not_data.
  - destruct fs; by_segments; reflexivity.
  - revert HA. apply Forall_impl, fsync_is_meta.
  - revert HF. apply Forall_impl. now intros a [_ H].
Qed.

(* a successful copy operation = [open/backup/create/size/clone/data] ++ [finalise]:
   no metadata or fsync action in the first part, no sizing or data action in
   the second, and fsync — exactly one, when requested — is the very last action *)
Theorem copy_actions_order fc src dst e l :
  copy_actions fc src dst e = (l, true) ->
  exists A F, l = A ++ F /\
    existsb is_meta A = false /\ existsb data_or_sizing F = false /\
    (c_fsync fc = true -> exists F', F = F' ++ [AFsync (KDst dst)] /\ existsb is_fsync (A ++ F') = false) /\
    (c_fsync fc = false -> existsb is_fsync l = false).
Proof.
  unfold copy_actions. destruct (ce_dst_exists e && ce_same_file e); [discriminate|].
  (* not by injection, which computes the appends of the literal segments *)
  intros H. apply (f_equal fst) in H. cbn [fst] in H. subst l.
  (* the nine segments of the list regrouped: the five up to the data transfers (named A below),
     the three of finalise_copy (F'), the fsync *)
  assert (forall s1 s2 s3 s4 s5 s6 s7 s8 s9 : list sysact,
            s1 ++ s2 ++ s3 ++ s4 ++ s5 ++ s6 ++ s7 ++ s8 ++ s9 = (s1 ++ s2 ++ s3 ++ s4 ++ s5) ++ (s6 ++ s7 ++ s8) ++ s9) as R
    by (intros; now rewrite <- !app_assoc).
  rewrite R. clear R.
  lazymatch goal with |- context [?A0 ++ ?F0 ++ _ = _] => set (A := A0); set (F' := F0) end.
  destruct (phases_order A F' (c_fsync fc) (KDst dst)) as (HA & HF & Hnf).
  { subst A. by_segments; reflexivity. }
  { subst F'. by_segments; split; reflexivity. }
  exists A, (F' ++ if c_fsync fc then [AFsync (KDst dst)] else []).
  split; [reflexivity|]. split; [exact HA|]. split; [exact HF|]. split; intros ->.
  - eexists. split; [reflexivity|exact Hnf].
  - rewrite app_nil_r. exact Hnf.
Qed.

(* C04: a failing step outside the finalisation class, other than a tolerated one (xattr, ownership), yields an error exit *)
Theorem fault_outside_known_class_is_reported l i a :
  nth_error l i = Some a -> known_class_04 a = false ->
  match a with ASetxattr _ | AChown _ => True | _ => snd (with_fault l i) = false end.
Proof.
  intros Hn Hk. unfold with_fault. rewrite Hn. destruct a; cbn in *; try exact I; try reflexivity; discriminate.
Qed.

(* exit-ok after a fault => either nothing failed, or the failing action is a
   tolerated one (xattr / ownership), or it is in the known finalisation class *)
Theorem fault_exit_ok_classified l i :
  snd (with_fault l i) = true ->
  nth_error l i = None \/
  exists a, nth_error l i = Some a /\ (fault_effect_of a = FxTolerated \/ known_class_04 a = true).
Proof.
  unfold with_fault. destruct (nth_error l i) as [a|] eqn:E; [|now left]. intros H. right. exists a. split; [reflexivity|].
  destruct a; cbn in *; try discriminate; auto.
Qed.

(* the known class is real: a failing fsync is not reported *)
Lemma fault_in_finalisation_refuted :
  exists fc src dst e i a, nth_error (fst (copy_actions fc src dst e)) i = Some a /\
    a = AFsync (KDst dst) /\ snd (with_fault (fst (copy_actions fc src dst e)) i) = true.
Proof.
  exists (mkFin false false false true), [], [], (mkEnv false false None 4 false false [(0, 4)] 0), 8%nat, (AFsync (KDst [])).
  vm_compute. repeat split.
Qed.

(* a tolerated failure still executes the permission/timestamp/fsync steps *)
Theorem tolerated_fault_continues l i a b :
  nth_error l i = Some a -> fault_effect_of a = FxTolerated ->
  In b (skipn (S i) l) -> (match b with ASetxattr _ => False | _ => True end) ->
  In b (fst (with_fault l i)).
Proof.
  intros Hn He Hb Hnb. unfold with_fault. rewrite Hn, He. cbn [fst]. apply in_or_app. right.
  apply filter_In. split; [exact Hb|]. destruct a; cbn in He; try discriminate; destruct b; try reflexivity; contradiction.
Qed.
