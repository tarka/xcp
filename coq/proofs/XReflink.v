(* Translator tie (see ExtractedOk.v): the unsupported errnos of libfs reflink, the decision table of CopyHandle::try_reflink. *)
From XcpModel Require Import Base FileCopy Extracted.

Theorem x_reflink_unsupported_ok : forall e, e <> 0 ->
  existsb (N.eqb e) x_reflink_unsupported_errnos = match classify_clone e with ClUnsup => true | _ => false end.
Proof.
  intros e He. unfold classify_clone. destruct (N.eqb_spec e 0); [contradiction|].
  cbn [x_reflink_unsupported_errnos existsb]. rewrite orb_false_r, !orb_assoc. now destruct (_ || _).
Qed.

Definition rl_code (o : rl_out) : N := match o with RlCloned => 1 | RlCopy => 0 | RlFail _ => 2 end.
Definition mode_of_code (m : N) : reflink_mode := if m =? 0 then RfAuto else if m =? 1 then RfAlways else RfNever.

Theorem x_try_reflink_ok : forall m, m < 3 ->
  fst (try_reflink (mode_of_code m) ClOk) = x_try_reflink_issues_clone m /\
  rl_code (snd (try_reflink (mode_of_code m) ClOk)) = x_try_reflink m true /\
  rl_code (snd (try_reflink (mode_of_code m) ClUnsup)) = x_try_reflink m false /\
  (forall e, rl_code (snd (try_reflink (mode_of_code m) (ClErr e))) = if x_try_reflink_issues_clone m then 2 else 0).
Proof.
  intros m Hm. assert (m = 0 \/ m = 1 \/ m = 2) as H by lia.
  destruct H as [-> | [-> | ->]]; repeat split; reflexivity.
Qed.
