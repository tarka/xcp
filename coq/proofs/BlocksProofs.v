From XcpModel Require Import Base Blocks.

(* q is the quotient of j by bs exactly when j lies in the q-th interval of length bs *)
Lemma div_eq_iff bs j q : 0 < bs -> (q = j / bs <-> q * bs <= j < q * bs + bs).
Proof.
  intros Hbs. split.
  - intros ->. pose proof (N.mul_div_le j bs). pose proof (N.mul_succ_div_gt j bs). lia.
  - intros H. apply (N.div_unique _ _ _ (j - q * bs)); lia.
Qed.

(* the one non-linear step: where k * bs falls relative to q * bs + r, for a remainder r < bs *)
Lemma mul_lt_quot_rem bs q r k : r < bs ->
  (k * bs < q * bs + r <-> k < q \/ k = q /\ 0 < r).
Proof.
  intros Hr. destruct (N.lt_trichotomy k q) as [H|[->|H]].
  - pose proof (N.mul_le_mono_r (k + 1) q bs). lia.
  - lia.
  - pose proof (N.mul_le_mono_r (q + 1) k bs). lia.
Qed.

Lemma nblocks_spec len bs k : 0 < bs -> (k < nblocks len bs <-> k * bs < len).
Proof.
  intros Hbs. unfold nblocks.
  pose proof (mul_lt_quot_rem bs (len / bs) (len mod bs) k (N.mod_lt len bs ltac:(lia))) as H.
  rewrite (N.mul_comm (len / bs)), <- N.div_mod in H by lia.
  destruct (N.ltb_spec 0 (len mod bs)); lia.
Qed.

(* byte i lies in block k exactly when it lies in the range and k = (i - start) / bs *)
Lemma blk_mem start len bs k i : 0 < bs ->
  (blk_off start bs k <= i < blk_off start bs k + blk_bytes len bs k <->
   start <= i < start + len /\ k = (i - start) / bs).
Proof.
  intros Hbs. unfold blk_off, blk_bytes.
  rewrite div_eq_iff, <- N.add_min_distr_l, N.min_glb_lt_iff by assumption. lia.
Qed.

Lemma blk_within start len bs k : 0 < bs -> k < nblocks len bs ->
  1 <= blk_bytes len bs k <= bs /\
  start <= blk_off start bs k /\ blk_off start bs k + blk_bytes len bs k <= start + len.
Proof.
  intros Hbs Hk. apply nblocks_spec in Hk; [|assumption].
  unfold blk_bytes, blk_off. lia.
Qed.

Lemma blk_cover start len bs i : 0 < bs -> start <= i < start + len ->
  exists k, k < nblocks len bs /\
            blk_off start bs k <= i < blk_off start bs k + blk_bytes len bs k.
Proof.
  intros Hbs Hi. exists ((i - start) / bs). split; [|apply blk_mem; auto].
  apply nblocks_spec; [assumption|]. pose proof (N.mul_div_le (i - start) bs). lia.
Qed.

Lemma blk_disjoint {start len bs k1 k2 i} : 0 < bs ->
  blk_off start bs k1 <= i < blk_off start bs k1 + blk_bytes len bs k1 ->
  blk_off start bs k2 <= i < blk_off start bs k2 + blk_bytes len bs k2 ->
  k1 = k2.
Proof.
  intros Hbs I1 I2. apply blk_mem in I1, I2; try assumption.
  destruct I1 as [_ ->]. now destruct I2 as [_ ->].
Qed.

(* whatever list holds every block index: each byte of the range lies in exactly one of its blocks *)
Lemma blocks_tile start len bs (bl : list nat) i : 0 < bs ->
  (forall b, (b < N.to_nat (nblocks len bs))%nat -> In b bl) -> start <= i < start + len ->
  exists b, In b bl /\
    blk_off start bs (N.of_nat b) <= i < blk_off start bs (N.of_nat b) + blk_bytes len bs (N.of_nat b) /\
    forall b', In b' bl ->
      blk_off start bs (N.of_nat b') <= i < blk_off start bs (N.of_nat b') + blk_bytes len bs (N.of_nat b') -> b' = b.
Proof.
  intros Hbs Hall Hi. destruct (blk_cover start len bs i Hbs Hi) as (k & Hk & Hc).
  exists (N.to_nat k). rewrite N2Nat.id. split; [apply Hall; lia|]. split; [exact Hc|].
  intros b' _ Hc'. rewrite <- (blk_disjoint Hbs Hc' Hc). now rewrite Nat2N.id.
Qed.

Lemma nblocks_le len bs : 0 < bs -> nblocks len bs <= len.
Proof.
  intros Hbs. destruct (N.eq_dec (nblocks len bs) 0) as [->|Hn]; [lia|].
  pose proof (proj1 (nblocks_spec len bs (nblocks len bs - 1) Hbs) ltac:(lia)).
  pose proof (N.mul_le_mono_l 1 bs (nblocks len bs - 1) ltac:(lia)). lia.
Qed.

(* no intermediate of block k exceeds the end of the range, so none overflows when start + len does not *)
Lemma blk_intermediates_le start len bs k : 0 < bs -> k < nblocks len bs ->
  Forall (fun v => v <= start + len) (blk_intermediates start len bs k).
Proof.
  intros Hbs Hk. apply nblocks_spec in Hk; [|assumption].
  pose proof (nblocks_le len bs Hbs) as Hn.
  pose proof (N.le_add_r (len / bs) (if 0 <? len mod bs then 1 else 0)) as Hq. fold (nblocks len bs) in Hq.
  pose proof (N.mod_le len bs ltac:(lia)).
  unfold blk_intermediates, blk_bytes, blk_off. repeat constructor; lia.
Qed.

(* bs = usize::MAX (the value --no-progress selects): exactly one block *)
Lemma blk_single len bs : 0 < len -> len <= bs -> nblocks len bs = 1.
Proof.
  intros H1 H2.
  pose proof (nblocks_spec len bs 0). pose proof (nblocks_spec len bs 1). lia.
Qed.

Lemma nblocks_zero bs : 0 < bs -> nblocks 0 bs = 0.
Proof. intros H. pose proof (nblocks_spec 0 bs 0 H). lia. Qed.

Lemma range_jobs_spec start len bs o n :
  In (o, n) (range_jobs start len bs) <->
  exists k, k < nblocks len bs /\ o = blk_off start bs k /\ n = blk_bytes len bs k.
Proof.
  unfold range_jobs. rewrite in_map_iff. split.
  - intros (k & H & Hin). apply in_seq in Hin. injection H as <- <-.
    exists (N.of_nat k). split; [lia|auto].
  - intros (k & Hk & -> & ->). exists (N.to_nat k). rewrite N2Nat.id. split; [reflexivity|].
    apply in_seq. lia.
Qed.
