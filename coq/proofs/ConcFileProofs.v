(* The parfile protocol, on the plan of ConcBlockProofs.v:
   one unit of work per step, the (handle, block) pairs are kept, and the
   invariant FInv: a handle is live while a worker holds it. *)
From XcpModel Require Import Base ConcBlock ConcFile.
From XcpProofs Require Import BaseProofs ConcBlockProofs.
From Coq Require Import PeanoNat Permutation.
Local Open Scope nat_scope.

(* the six transitions of fstep, one constructor each; a worker's step splits the list of busy workers at that worker *)
Inductive fstep_case W : fst_ -> fst_ -> Prop :=
| fs_send o todo next wdone fq run ev :
    fstep_case W (mkF (o :: todo) next wdone fq run ev) (mkF todo (S next) wdone (fq ++ [(next, o)]) run ev)
| fs_close next fq run ev : fstep_case W (mkF [] next false fq run ev) (mkF [] next true fq run ev)
| fs_open todo next wdone h js fq run ev : length run < W ->
    fstep_case W (mkF todo next wdone ((h, OCopy js) :: fq) run ev) (mkF todo next wdone fq ((h, js) :: run) (EOpen h :: ev))
| fs_inline todo next wdone h fq run ev : length run < W ->
    fstep_case W (mkF todo next wdone ((h, OInline) :: fq) run ev) (mkF todo next wdone fq run (EInline h :: ev))
| fs_write todo next wdone fq l1 h b rest l2 ev :
    fstep_case W (mkF todo next wdone fq (l1 ++ (h, b :: rest) :: l2) ev)
                 (mkF todo next wdone fq (l1 ++ (h, rest) :: l2) (EWrite h b :: ev))
| fs_final todo next wdone fq l1 h l2 ev :
    fstep_case W (mkF todo next wdone fq (l1 ++ (h, []) :: l2) ev) (mkF todo next wdone fq (l1 ++ l2) (EFinal h :: ev)).

Lemma fstep_cases {W s l s'} : fstep W s l = Some s' -> fstep_case W s s'.
Proof.
  destruct s as [todo next wdone fq run ev]. destruct l as [| |k]; cbn [fstep f_todo f_next f_wdone f_fq f_run f_ev]; intros H.
  1,2: split_step H; now constructor.
  destruct (nth_error run k) as [[h js]|] eqn:En; [|discriminate].
  set (l1 := firstn k run) in *. set (l2 := skipn (S k) run) in *. rewrite (nth_error_mid En : run = l1 ++ _ :: l2).
  destruct js; injection H as <-; constructor.
Qed.

Lemma ffinal_spec s : ffinal s = true -> f_todo s = [] /\ f_fq s = [] /\ f_run s = [].
Proof.
  unfold ffinal. destruct (f_todo s); [|discriminate]. destruct (f_fq s); [|discriminate].
  destruct (f_run s); [|discriminate]. repeat split.
Qed.

(* as st of ConcBlockProofs: the fields of an explicit state *)
Ltac stf := cbn [f_todo f_next f_wdone f_fq f_run f_ev] in *.

Theorem fstep_measure W s l s' : fstep W s l = Some s' -> S (fmeasure s') = fmeasure s.
Proof.
  intros H. destruct (fstep_cases H); unfold fmeasure; stf; rewrite ?fold_add_app; cbn; lia.
Qed.

Definition run_pairs (run : list (nat * list nat)) : list (nat * nat) :=
  flat_map (fun hr => map (fun b => (fst hr, b)) (snd hr)) run.
Definition f_pairs (s : fst_) : list (nat * nat) :=
  written (f_ev s) ++ run_pairs (f_run s) ++ fq_pairs (f_fq s) ++ todo_pairs (f_next s) (f_todo s).

Theorem fstep_pairs W s l s' : fstep W s l = Some s' -> Permutation (f_pairs s) (f_pairs s').
Proof.
  intros H. destruct (fstep_cases H); unfold f_pairs, run_pairs; stf; rewrite ?flat_map_app;
    cbn [flat_map fst snd map app]; try reflexivity.
  - (* fs_send *) now rewrite fq_pairs_app, todo_pairs_cons, <- !app_assoc.
  - (* fs_open *) apply Permutation_app_head. cbn. rewrite <- !app_assoc. apply Permutation_app_swap_app.
  - (* fs_write *) symmetry. etransitivity; [apply Permutation_middle|].
    apply Permutation_app_head, (Permutation_app_tail _ (Permutation_middle _ _ _)).
Qed.

Theorem freachable_pairs W ops s : freachable W ops s -> Permutation (todo_pairs 0 ops) (f_pairs s).
Proof.
  induction 1 as [|s l s' _ IH Hs]; [reflexivity|]. now rewrite IH, (fstep_pairs W s l s' Hs).
Qed.

Set Implicit Arguments.
Record FInv (W : nat) (ops : list bop) (t : nat) (s : fst_) : Prop := mkFInv {
  w_sent : Sent ops t (f_next s) (f_fq s) (f_todo s);
  w_coupled : Coupled ops t (fun h => In h (map fst (f_run s))) (f_ev s);
  w_nodup : NoDup (map fst (f_run s));
  w_run : length (f_run s) <= W }.
Unset Implicit Arguments.

Lemma finv_init W ops : FInv W ops 0 (finit ops).
Proof. constructor; cbn; [apply sent_init|apply coupled_init|constructor|lia]. Qed.

Lemma finv_step {W ops t s l s'} : FInv W ops t s -> fstep W s l = Some s' -> exists t', FInv W ops t' s'.
Proof.
  intros [HS Hp Hnd Hrun] Hs. destruct (fstep_cases Hs); stf.
  5,6: rewrite map_app in Hp, Hnd; cbn [map fst] in Hp, Hnd; pose proof (in_elt h (map fst l1) (map fst l2)) as Hin.
  - exists t. constructor; stf; try assumption. now apply sent_walk.
  - exists t. now constructor.
  - (* a worker takes the next operation: a file is opened *)
    destruct (sent_take HS) as (-> & Hop & HS'). destruct (coupled_next (Hp t)) as [_ Hz].
    exists (S t). constructor; stf; [assumption|now apply (coupled_open Hp Hop)|now constructor|assumption].
  - (* ... or done inline *)
    destruct (sent_take HS) as (-> & Hop & HS'). exists (S t). constructor; stf; try assumption. now apply coupled_inline.
  - (* a worker writes a block *)
    exists t. constructor; stf; rewrite ?map_app; cbn [map fst]; try assumption.
    + now apply coupled_write.
    + now rewrite app_length in *.
  - (* ... or finalises when none is left *)
    exists t. constructor; stf; rewrite ?map_app; try assumption.
    + apply (coupled_final Hp Hin). intros x. apply NoDup_remove_2 in Hnd.
      clear - Hnd. rewrite !in_app_iff in *. cbn. firstorder congruence.
    + now apply NoDup_remove_1 in Hnd.
    + rewrite app_length in *. cbn in Hrun. lia.
Qed.

Theorem finv_reachable W ops s : freachable W ops s -> exists t, FInv W ops t s.
Proof.
  induction 1 as [|s l s' _ [t IH] Hs]; [exists 0; apply finv_init|exact (finv_step IH Hs)].
Qed.

(* the number of open handles is the number of busy workers: at most W *)
Theorem parfile_open_bound W ops s : freachable W ops s -> length (f_run s) <= W.
Proof. intros Hr. destruct (finv_reachable W ops s Hr) as [t HI]. exact (w_run HI). Qed.

Theorem parfile_no_deadlock W s : 1 <= W -> ffinal s = false -> exists l s', fstep W s l = Some s'.
Proof.
  intros HW Hf. destruct s as [todo next wdone fq run ev]. unfold ffinal in Hf. stf.
  destruct todo as [|o r]; [|exists FWalk; eexists; reflexivity].
  destruct wdone; [|exists FWalk; eexists; reflexivity].
  destruct run as [|[h js] rr].
  - destruct W; [lia|]. destruct fq as [|[h [js|]] r]; [discriminate| |]; exists FTake; eexists; reflexivity.
  - exists (FWork 0). cbn. destruct js; eexists; reflexivity.
Qed.
