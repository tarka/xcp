(* The kernel-copy loops of CopyLoop.v.  What a trace wrote is read off two predicates: `aligned` (every transfer has
   r_src = r_dst, so a written byte i holds source byte i and the order of the transfers does not matter) and
   `covered_by` (which bytes were written).  copy_bytes and block_job each get an inductive description of what they can
   return (cb_run, bj_run) and one lemma placing the fixpoint's result in it; the facts about their traces are inductions on
   that.  The sparse walk copy_sparse is handled by induction on its fuel. *)
From XcpModel Require Import Base Sparse CopyLoop.
From XcpProofs Require Import BaseProofs SparseProofs.
From Coq Require Import Permutation.

Definition aligned (tr : xtrace) : Prop := Forall (fun e => r_src (fst e) = r_dst (fst e)) tr.
Definition entry_covers (e : xreq * xans) (i : N) : Prop :=
  r_dst (fst e) <= i /\ i < r_dst (fst e) + moved (snd e).
Definition covered_by (tr : xtrace) (i : N) : Prop := exists e, In e tr /\ entry_covers e i.

Lemma covered_by_nil i : ~ covered_by [] i.
Proof. intros (e & [] & _). Qed.

Lemma covered_by_cons e tr i : covered_by (e :: tr) i <-> entry_covers e i \/ covered_by tr i.
Proof. unfold covered_by. rewrite <- !Exists_exists. apply Exists_cons. Qed.

Lemma covered_by_app t1 t2 i : covered_by (t1 ++ t2) i <-> covered_by t1 i \/ covered_by t2 i.
Proof. unfold covered_by. rewrite <- !Exists_exists. apply Exists_app. Qed.

Lemma covered_by_perm tr tr' i : Permutation tr tr' -> covered_by tr i -> covered_by tr' i.
Proof.
  intros Hp (e & He & Hc). exists e. split; [|assumption]. eapply Permutation_in; eauto.
Qed.

Lemma aligned_app t1 t2 : aligned (t1 ++ t2) <-> aligned t1 /\ aligned t2.
Proof. apply Forall_app. Qed.

Lemma src_of_spec tr i :
  match src_of tr i with
  | Some s => exists e, In e tr /\ entry_covers e i /\ s = r_src (fst e) + (i - r_dst (fst e))
  | None => ~ covered_by tr i
  end.
Proof.
  induction tr as [|[r a] t IH]; cbn [src_of]; [apply covered_by_nil|].
  destruct (src_of t i) as [s|].
  - destruct IH as (e & He & Hc). exists e. split; [now right|assumption].
  - destruct (N.leb_spec (r_dst r) i); cbn [andb]; [destruct (N.ltb_spec i (r_dst r + moved a)); cbn [andb]|].
    1: exists (r, a); split; [now left|repeat split; auto].
    all: rewrite covered_by_cons; unfold entry_covers; cbn [fst snd]; intros [?|?]; [lia|contradiction].
Qed.

Lemma src_of_aligned {tr} i : aligned tr ->
  (covered_by tr i -> src_of tr i = Some i) /\ (~ covered_by tr i -> src_of tr i = None).
Proof.
  intros Hal. pose proof (src_of_spec tr i) as H. destruct (src_of tr i) as [s|].
  - destruct H as (e & He & Hc & ->). split; [intros _|intros Hn; destruct Hn; exists e; auto].
    rewrite (proj1 (Forall_forall _ _) Hal e He). destruct Hc. f_equal. lia.
  - split; [contradiction|reflexivity].
Qed.

Lemma src_of_perm {tr tr'} i : aligned tr -> Permutation tr tr' -> src_of tr i = src_of tr' i.
Proof.
  intros Hal Hp.
  destruct (src_of_aligned i Hal) as [S1 S2].
  destruct (src_of_aligned i (Permutation_Forall Hp Hal)) as [S1' S2'].
  pose proof (src_of_spec tr i) as H. destruct (src_of tr i) as [s|].
  - destruct H as (e & He & Hc & _). assert (covered_by tr i) as C by (exists e; auto).
    rewrite S1' by (eapply covered_by_perm; eauto). now rewrite <- S1.
  - symmetry. apply S2'. intros C. apply H. eapply covered_by_perm; [symmetry|]; eassumption.
Qed.

(* transfers issued back to back from cur: each starts where the previous one stopped *)
Fixpoint contiguous (cur : N) (tr : xtrace) : Prop :=
  match tr with
  | [] => True
  | e :: t => r_src (fst e) = cur /\ r_dst (fst e) = cur /\ contiguous (cur + moved (snd e)) t
  end.

Lemma total_moved_cons e t : total_moved (e :: t) = moved (snd e) + total_moved t.
Proof. reflexivity. Qed.

Lemma total_moved_app a b : total_moved (a ++ b) = total_moved a + total_moved b.
Proof. unfold total_moved. now rewrite map_app, sumN_app. Qed.

Lemma contiguous_app t1 : forall cur t2,
  contiguous cur t1 -> contiguous (cur + total_moved t1) t2 -> contiguous cur (t1 ++ t2).
Proof.
  induction t1 as [|e t IH]; intros cur t2; cbn [contiguous app].
  - intros _. now rewrite (N.add_0_r cur : cur + total_moved [] = cur).
  - intros (Hs & Hd & Ht). rewrite total_moved_cons, N.add_assoc. auto.
Qed.

(* what such a trace wrote: the bytes from cur on, as many as it moved, each from the source byte of the same offset *)
Lemma contiguous_exact {cur tr} : contiguous cur tr ->
  aligned tr /\ forall i, covered_by tr i <-> cur <= i < cur + total_moved tr.
Proof.
  revert cur. induction tr as [|e t IH]; intros cur.
  - intros _. split; [constructor|]. intros i. split; [intros []%covered_by_nil|cbn; lia].
  - intros (Hs & Hd & [Ha Hc]%IH). split; [constructor; [congruence|exact Ha]|].
    intros i. rewrite covered_by_cons, Hc, total_moved_cons. unfold entry_covers. rewrite Hd. lia.
Qed.

(* What the loop can return, whatever the fuel and the answers: requests answered with a positive count, each starting
   where the last one stopped, then at most one request that moved nothing; success only once w has reached len.
   (Which failure is reported, and what is left of the answers, is of no concern here.) *)
Inductive cb_run bs len : N -> N -> loop_out -> Prop :=
| cb_done w cur r : len <= w -> cb_run bs len w cur (mkOut StOk [] r)
| cb_halt w cur st r : st <> StOk -> cb_run bs len w cur (mkOut st [] r)
| cb_stop w cur a st r : w < len -> moved a = 0 -> st <> StOk ->
    cb_run bs len w cur (mkOut st [(mkReq cur cur (N.min (len - w) bs), a)] r)
| cb_go w cur k o : w < len -> k <> 0 -> cb_run bs len (w + k) (cur + k) o ->
    cb_run bs len w cur (out_cons (mkReq cur cur (N.min (len - w) bs), XOk k) o).

(* closes a leaf of a proof that a loop's result is in its graph: `constructor` goes through the constructors until the side
   conditions of one are hypotheses, or hold of the concrete status and answer by computation *)
Ltac in_graph := constructor; (assumption || discriminate || reflexivity).

Lemma copy_bytes_run bs len fuel : forall w cur ans, cb_run bs len w cur (copy_bytes fuel bs len w cur ans).
Proof.
  induction fuel as [|f IH]; intros w cur ans; cbn [copy_bytes]; destruct (N.leb_spec len w).
  1-3: in_graph.
  destruct ans as [|[k|e] rest]; [in_graph| |in_graph].
  destruct (N.eqb_spec k 0) as [->|Hk]; [in_graph|]. constructor; [assumption|assumption|apply IH].
Qed.

Lemma copy_bytes_fuel fuel bs len : forall w cur ans,
  (length ans < fuel)%nat -> o_st (copy_bytes fuel bs len w cur ans) <> StOutOfFuel.
Proof.
  induction fuel as [|f IH]; intros w cur ans Hf; [lia|]. cbn [copy_bytes].
  destruct (len <=? w); [discriminate|]. destruct ans as [|[k|e] rest]; [discriminate| |discriminate].
  destruct (k =? 0); [discriminate|]. apply IH. cbn [length] in Hf. lia.
Qed.

Lemma copy_bytes_contiguous fuel bs len w cur ans : contiguous cur (o_trace (copy_bytes fuel bs len w cur ans)).
Proof.
  induction (copy_bytes_run bs len fuel w cur ans); cbn; auto.
Qed.

(* the first part holds of every outcome: C12 needs it of a failed copy too *)
Lemma copy_bytes_total fuel bs len w cur ans :
  let o := copy_bytes fuel bs len w cur ans in
  (w <= len -> ans_bounded (o_trace o) -> w + total_moved (o_trace o) <= len) /\
  (o_st o = StOk -> len <= w + total_moved (o_trace o)).
Proof.
  cbv zeta.
  induction (copy_bytes_run bs len fuel w cur ans) as [| | |w cur k o Hlt Hk _ [IH1 IH2]];
    cbn [o_st o_trace out_cons]; rewrite ?total_moved_cons; cbn [snd moved total_moved map sumN];
    (split; [intros Hw Hb|intros Hst]); try contradiction; try lia.
  - (* cb_go, the bound *)
    apply Forall_cons_iff in Hb. destruct Hb as [Hk' Hb']. cbn in Hk'. specialize (IH1 ltac:(lia) Hb'). lia.
  - (* cb_go, on success *) specialize (IH2 Hst). lia.
Qed.

Lemma copy_bytes_exact fuel : forall bs len w cur ans,
  w <= len ->
  let o := copy_bytes fuel bs len w cur ans in
  o_st o = StOk -> ans_bounded (o_trace o) ->
  aligned (o_trace o) /\
  total_moved (o_trace o) = len - w /\
  (forall i, covered_by (o_trace o) i <-> cur <= i < cur + (len - w)).
Proof.
  intros bs len w cur ans Hw o Hst Hb.
  destruct (contiguous_exact (copy_bytes_contiguous fuel bs len w cur ans)) as [Ha Hc].
  destruct (copy_bytes_total fuel bs len w cur ans) as [Hle Hge]. fold o in Ha, Hc, Hle, Hge.
  assert (total_moved (o_trace o) = len - w) as Ht by (specialize (Hle Hw Hb); specialize (Hge Hst); lia).
  split; [exact Ha|]. split; [exact Ht|]. intros i. now rewrite Hc, Ht.
Qed.

Lemma copy_bytes_reqs fuel : forall bs len w cur ans e,
  0 < bs -> In e (o_trace (copy_bytes fuel bs len w cur ans)) ->
  1 <= r_len (fst e) <= bs /\ r_src (fst e) = r_dst (fst e).
Proof.
  intros bs len w cur ans e Hbs.
  induction (copy_bytes_run bs len fuel w cur ans) as [| | |? ? ? ? ? ? ? IH]; cbn [o_trace out_cons In];
    try contradiction; (intros [<-|Hin]; [cbn [fst r_src r_dst r_len]; lia|]); [destruct Hin|exact (IH Hin)].
Qed.

(* C07's loop bound: it holds of every answer sequence and any fuel because a zero-byte answer ends the loop with an
   error *)
Lemma copy_bytes_steps fuel bs len w cur ans :
  N.of_nat (length (o_trace (copy_bytes fuel bs len w cur ans))) <= len - w.
Proof.
  induction (copy_bytes_run bs len fuel w cur ans); cbn [o_trace out_cons length]; lia.
Qed.

(* the same for a block job; a request that moved nothing may end it with success, at or after the end of the source *)
Inductive bj_run flen off bytes : N -> loop_out -> Prop :=
| bj_halt done st r : st <> StOk -> bj_run flen off bytes done (mkOut st [] r)
| bj_stop done a st r : moved a = 0 -> (st = StOk -> flen <= off + done) ->
    bj_run flen off bytes done (mkOut st [(mkReq (off + done) (off + done) (bytes - done), a)] r)
| bj_last done k r : k <> 0 -> bytes <= done + k ->
    bj_run flen off bytes done (mkOut StOk [(mkReq (off + done) (off + done) (bytes - done), XOk k)] r)
| bj_go done k o : k <> 0 -> done + k < bytes -> bj_run flen off bytes (done + k) o ->
    bj_run flen off bytes done (out_cons (mkReq (off + done) (off + done) (bytes - done), XOk k) o).

Lemma block_job_run flen off bytes fuel : forall done ans, bj_run flen off bytes done (block_job fuel flen off bytes done ans).
Proof.
  induction fuel as [|f IH]; intros done ans; cbn [block_job]; [in_graph|].
  destruct ans as [|[k|e] rest]; [in_graph| |in_graph].
  destruct (N.eqb_spec k 0) as [->|Hk].
  - apply bj_stop; [reflexivity|]. destruct (N.leb_spec flen (off + done)); [trivial|discriminate].
  - destruct (N.leb_spec bytes (done + k)); [apply bj_last|apply bj_go]; auto.
Qed.

Lemma block_job_fuel fuel flen off bytes : forall done ans,
  (length ans < fuel)%nat -> o_st (block_job fuel flen off bytes done ans) <> StOutOfFuel.
Proof.
  induction fuel as [|f IH]; intros done ans Hf; [lia|]. cbn [block_job].
  destruct ans as [|[k|e] rest]; [discriminate| |discriminate].
  destruct (k =? 0); [destruct (flen <=? off + done); discriminate|].
  destruct (bytes <=? done + k); [discriminate|]. apply IH. cbn [length] in Hf. lia.
Qed.

Lemma block_job_contiguous fuel flen off bytes done ans :
  contiguous (off + done) (o_trace (block_job fuel flen off bytes done ans)).
Proof.
  induction (block_job_run flen off bytes fuel done ans); cbn; rewrite <- ?N.add_assoc; auto.
Qed.

(* on success the whole block was moved, or (a zero-byte answer at or after the end of the source: extent ranges may
   overhang the file) everything up to that end *)
Lemma block_job_total fuel flen off bytes done ans :
  let o := block_job fuel flen off bytes done ans in
  (done <= bytes -> ans_bounded (o_trace o) -> done + total_moved (o_trace o) <= bytes) /\
  (o_st o = StOk -> bytes <= done + total_moved (o_trace o) \/ flen <= off + done + total_moved (o_trace o)).
Proof.
  cbv zeta.
  induction (block_job_run flen off bytes fuel done ans) as [|? ? ? ? Ha Hst'| |done k o Hk Hlt _ [IH1 IH2]];
    cbn [o_st o_trace out_cons]; rewrite ?total_moved_cons; cbn [snd moved total_moved map sumN];
    (split; [intros Hd Hb|intros Hst]); try contradiction; try lia.
  - (* bj_stop, on success: at or after the end of the source *) specialize (Hst' Hst). lia.
  - (* bj_last, the bound *) apply Forall_cons_iff, proj1 in Hb. cbn in Hb. lia.
  - (* bj_go, the bound *)
    apply Forall_cons_iff in Hb. destruct Hb as [Hk' Hb']. cbn in Hk'. specialize (IH1 ltac:(lia) Hb'). lia.
  - (* bj_go, on success *) specialize (IH2 Hst). lia.
Qed.

Lemma block_job_exact fuel flen off bytes done ans :
  done <= bytes ->
  let o := block_job fuel flen off bytes done ans in
  o_st o = StOk -> ans_bounded (o_trace o) ->
  aligned (o_trace o) /\
  forall i, (covered_by (o_trace o) i -> off + done <= i < off + bytes) /\
            (off + done <= i < off + bytes -> i < flen -> covered_by (o_trace o) i).
Proof.
  intros Hd o Hst Hb.
  destruct (contiguous_exact (block_job_contiguous fuel flen off bytes done ans)) as [Ha Hc].
  destruct (block_job_total fuel flen off bytes done ans) as [Hle Hge]. fold o in Ha, Hc, Hle, Hge.
  specialize (Hle Hd Hb). specialize (Hge Hst).
  split; [exact Ha|]. intros i. rewrite Hc. lia.
Qed.

(* C07; the + 1 is the zero-byte answer that ends a job at the end of the source *)
Lemma block_job_steps fuel flen off bytes done ans :
  N.of_nat (length (o_trace (block_job fuel flen off bytes done ans))) <= (bytes - done) + 1.
Proof.
  induction (block_job_run flen off bytes fuel done ans); cbn [o_trace out_cons length]; lia.
Qed.

(* the pinned (unrepaired) block job reports success after a short transfer *)
Lemma block_job_pinned_short_refuted :
  exists off bytes ans i,
    let o := block_job_pinned off bytes ans in
    o_st o = StOk /\ ans_bounded (o_trace o) /\ off <= i < off + bytes /\ ~ covered_by (o_trace o) i.
Proof.
  exists 0, 10000, [XOk 3000], 3000. cbn. split; [reflexivity|].
  split; [repeat constructor; cbn; lia|]. split; [lia|].
  intros (e & [<-|[]] & Hc). unfold entry_covers in Hc; cbn in Hc. lia.
Qed.

(* whatever the seek calls answer, a successful walk copies exactly the segments that segments_go lists.  The list is
   the same at every fuel from this one up: that is where copy_sparse_spec, which holds of any fuel, meets
   segments_go_spec, which asks for enough *)
Lemma copy_sparse_segments bs len sd sh : forall fuel pos ans,
  let o := copy_sparse fuel bs len pos sd sh ans in
  o_st o = StOk -> ans_bounded (o_trace o) ->
  exists segs, (forall fuel', (fuel <= fuel')%nat -> segments_go fuel' sd sh len pos = SegOk segs) /\
    aligned (o_trace o) /\ forall i, covered_by (o_trace o) i <-> in_data segs i.
Proof.
  induction fuel as [|f IH]; intros pos ans; cbn [copy_sparse]; destruct (N.leb_spec len pos) as [Hle|Hlt]; try discriminate.
  1,2: intros _ _; exists []; split; [intros; now apply segments_go_done|]; split; [constructor|];
    intros i; rewrite in_data_nil; split; [apply covered_by_nil|contradiction].
  destruct (next_segment sd sh len pos) as [[d h]|e] eqn:En; [|discriminate].
  destruct (N.leb_spec h pos); [discriminate|]. destruct (N.ltb_spec h d); [discriminate|]. cbn [orb].
  pose proof (copy_bytes_exact (S (length ans)) bs (h - d) 0 d ans (N.le_0_l _)) as Hcb. cbv zeta in Hcb.
  destruct (o_st (copy_bytes (S (length ans)) bs (h - d) 0 d ans)) eqn:Ecb; try (intros Hst; congruence).
  cbn [out_app o_st o_trace]. intros Hst Hb. apply Forall_app in Hb. destruct Hb as [Hb1 Hb2].
  destruct (Hcb eq_refl Hb1) as (C1 & _ & C3). destruct (IH _ _ Hst Hb2) as (segs & I0 & I1 & I2).
  exists ((d, h) :: segs). split; [|split; [apply aligned_app; now split|]].
  - clear - Hlt En I0. intros [|f'] Hf; [lia|]. cbn [segments_go]. destruct (N.leb_spec len pos); [lia|]. now rewrite En, I0 by lia.
  - intros i. rewrite covered_by_app, in_data_cons, C3, I2. now replace (d + (h - d - 0)) with h by lia.
Qed.

(* against the kernel's answers for a layout: exactly the data is copied *)
Lemma copy_sparse_spec fuel bs len L ans : layout_ok 0 len L ->
  let o := copy_sparse fuel bs len 0 (k_seek_data L len) (k_seek_hole L len) ans in
  o_st o = StOk -> ans_bounded (o_trace o) ->
  aligned (o_trace o) /\ (forall i, covered_by (o_trace o) i <-> in_data L i).
Proof.
  intros HL o Hst Hb. destruct (copy_sparse_segments bs len _ _ fuel 0 ans Hst Hb) as (segs & Hs & A1 & A2).
  specialize (Hs (fuel + (length L + 2))%nat ltac:(lia)).
  rewrite (segments_go_spec len L [] 0 _ (Forall_nil _) HL) in Hs by lia. injection Hs as <-.
  split; [exact A1|]. intros i. rewrite <- (expect_segs_cover len L 0 i HL). apply A2.
Qed.

(* with the progress guard every iteration either ends the walk or moves pos strictly forward, so len - pos
   iterations suffice for ANY answers of lseek/fstat (sd, sh) and of the copy calls (ans) *)
Lemma copy_sparse_fuel : forall fuel bs len pos sd sh ans,
  (N.to_nat (len - pos) < fuel)%nat -> o_st (copy_sparse fuel bs len pos sd sh ans) <> StOutOfFuel.
Proof.
  induction fuel as [|f IH]; intros bs len pos sd sh ans Hf; [lia|].
  cbn [copy_sparse]. destruct (N.leb_spec len pos) as [Hle|Hlt]; [discriminate|].
  destruct (next_segment sd sh len pos) as [[d h]|e]; [|discriminate].
  destruct (N.leb_spec h pos) as [Hhp|Hhp]; [discriminate|].
  destruct (N.ltb_spec h d) as [Hhd|Hhd]; [discriminate|]. cbn [orb].
  pose proof (copy_bytes_fuel (S (length ans)) bs (h - d) 0 d ans ltac:(lia)) as Hcb.
  destruct (o_st (copy_bytes (S (length ans)) bs (h - d) 0 d ans)) eqn:Ecb; try congruence.
  cbn [out_app o_st]. apply IH. lia.
Qed.

(* the walk as it was before repair 61ae7c3 spins: with answers a shrinking source produces (everything at or
   after pos is gone: both seeks land on the new end T <= pos) no amount of fuel lets it finish *)
Lemma copy_sparse_pinned_spins : exists bs len sd sh, forall fuel,
  o_st (copy_sparse_pinned fuel bs len 0 sd sh []) = StOutOfFuel.
Proof.
  exists 4096, 10, (fun _ => SkOff 0), (fun _ => SkOff 0). induction fuel as [|f IH]; [reflexivity|]. exact IH.
Qed.

(* ... and the repaired walk reports the premature end on the same answers *)
Lemma copy_sparse_shrunk_source_fails : forall fuel,
  o_st (copy_sparse (S fuel) 4096 10 0 (fun _ => SkOff 0) (fun _ => SkOff 0) []) = StErr EPREMATURE.
Proof. intros. reflexivity. Qed.

(* C12: the Copied updates add up to what was moved *)
Lemma copied_updates_total tr : sumN (copied_updates tr) = total_moved tr.
Proof.
  unfold copied_updates, total_moved. induction tr as [|[r [k|e]] t IH]; cbn [flat_map map sumN app snd moved]; lia.
Qed.
