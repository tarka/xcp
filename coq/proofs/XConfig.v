(* Translator tie (see ExtractedOk.v): Config::from(&Opts), Config::num_workers. *)
From XcpModel Require Import Base Main Extracted.
From Coq Require Import String.

Theorem x_num_workers_ok : forall w n, x_num_workers w n = num_workers w n.
Proof. reflexivity. Qed.
Theorem x_config_workers_ok : forall w n, x_config_workers w n = num_workers w n.
Proof. reflexivity. Qed.

(* the worker count both drivers are started with is at least one on any machine (>= 1 CPU), whatever -w says:
   the hypothesis `1 <= W` of the ConcBlock / ConcFile / ConcFault theorems *)
Theorem x_workers_at_least_one : forall w ncpus, 1 <= ncpus -> 1 <= x_num_workers (x_config_workers w ncpus) ncpus.
Proof.
  intros w n Hn. change (1 <= num_workers (x_config_workers w n) n). unfold num_workers.
  destruct (N.eqb_spec (x_config_workers w n) 0); lia.
Qed.

(* Config::from is ONE struct literal without a `..default` tail; apart from the two computed fields every Config
   field is the option of the same name, unchanged *)
Definition config_field_plain (fe : string * string) : bool :=
  String.eqb (fst fe) "workers" || String.eqb (fst fe) "block_size" || String.eqb (snd fe) ("opts." ++ fst fe).
Theorem x_config_fields_plain : forall f e, In (f, e) x_config_fields ->
  f <> "workers"%string -> f <> "block_size"%string -> e = ("opts." ++ f)%string.
Proof.
  intros f e Hin H1 H2.
  assert (forallb config_field_plain x_config_fields = true) as Hall by reflexivity.
  rewrite forallb_forall in Hall. specialize (Hall _ Hin). unfold config_field_plain in Hall. cbn [fst snd] in Hall.
  apply Bool.orb_true_iff in Hall. destruct Hall as [Hall|Hall].
  - apply Bool.orb_true_iff in Hall. destruct Hall as [Hall|Hall]; apply String.eqb_eq in Hall; contradiction.
  - now apply String.eqb_eq in Hall.
Qed.
Theorem x_config_fields_names : map fst x_config_fields =
  ["workers"; "block_size"; "gitignore"; "no_clobber"; "no_perms"; "no_timestamps"; "ownership"; "dereference";
   "no_target_directory"; "fsync"; "reflink"; "backup"]%string.
Proof. reflexivity. Qed.
