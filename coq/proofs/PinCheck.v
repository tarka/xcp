(* `pin_unchanged`, decided: the two texts of a function are compared where they are found, so that the proof of a pin
   (pins/Pin_*.v) is one evaluation and never writes out anything as long as a function body. *)
From XcpModel Require Import Extracted.
From XcpProofs Require Import PinnedSource.
From Coq Require Import String.

Definition pin_unchangedb (name : string) : bool :=
  match pin_of name x_pinned, pin_of name pinned_source with
  | Some a, Some b => String.eqb a b
  | _, _ => false
  end.

Lemma pin_unchangedb_ok name : pin_unchangedb name = true -> pin_unchanged name.
Proof.
  unfold pin_unchangedb, pin_unchanged.
  destruct (pin_of name x_pinned) as [a|], (pin_of name pinned_source) as [b|]; try discriminate.
  intros H. apply String.eqb_eq in H. subst b. split; [reflexivity|discriminate].
Qed.
