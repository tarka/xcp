From XcpModel Require Import Base Updater.
From XcpProofs Require Import BaseProofs.
From Coq Require Import PeanoNat.

Lemma sum_copied_app a b : sum_copied (a ++ b) = sum_copied a + sum_copied b.
Proof. unfold sum_copied. now rewrite map_app, sumN_app. Qed.

Lemma sum_size_app a b : sum_size (a ++ b) = sum_size a + sum_size b.
Proof. unfold sum_size. now rewrite map_app, sumN_app. Qed.

(* batching only drops Copied updates: delivered copied bytes never exceed the
   bytes passed to send, sizes and errors are delivered unchanged *)
Lemma chan_send_bounds bs sent u :
  let d := snd (chan_send bs sent u) in
  sum_copied d <= sum_copied [u] /\ sum_size d = sum_size [u] /\ has_error d = has_error [u].
Proof. destruct u as [n|n|]; cbn [chan_send snd]; try destruct (_ <? _); cbn; repeat split; lia. Qed.

Lemma chan_deliver_bounds bs : forall sends sent,
  sum_copied (chan_deliver bs sent sends) <= sum_copied sends /\
  sum_size (chan_deliver bs sent sends) = sum_size sends /\
  has_error (chan_deliver bs sent sends) = has_error sends.
Proof.
  induction sends as [|u r IH]; intros sent; [cbn; repeat split; lia|].
  cbn [chan_deliver]. pose proof (chan_send_bounds bs sent u) as (A & B & C).
  destruct (chan_send bs sent u) as [s' d]. cbn [snd] in A, B, C. destruct (IH s') as (A' & B' & C').
  change (u :: r) with ([u] ++ r). unfold has_error in *.
  rewrite !sum_copied_app, !sum_size_app, !existsb_app, B, B', C, C'. repeat split; lia.
Qed.

(* the delivered stream of a prefix of the sends is a prefix of the delivered stream *)
Lemma chan_deliver_app bs : forall a b sent,
  exists sent', chan_deliver bs sent (a ++ b) = chan_deliver bs sent a ++ chan_deliver bs sent' b.
Proof.
  induction a as [|u r IH]; intros b sent; [exists sent; reflexivity|].
  cbn [app chan_deliver]. destruct (chan_send bs sent u) as [s' d].
  destruct (IH b s') as [s'' E]. exists s''. rewrite E. now rewrite app_assoc.
Qed.

Definition g_copied (l : list gev) : N := sum_copied (map gev_update l).
Definition g_size (l : list gev) : N := sum_size (map gev_update l).

(* the file an event is charged to (GError counts for no file: any id will do) *)
Definition gev_file (e : gev) : nat := match e with GSize f _ | GCopied f _ => f | GError => 0%nat end.

(* the global totals are the sums, over a duplicate-free list of the file ids of the log, of the per-file totals *)
Lemma totals_by_file l fs : NoDup fs -> (forall e, In e l -> In (gev_file e) fs) ->
  g_copied l = sumN (map (fun f => copied_for f l) fs) /\ g_size l = sumN (map (fun f => size_for f l) fs).
Proof.
  intros Hnd Hin. unfold g_copied, g_size, sum_copied, sum_size. rewrite !map_map.
  split; apply (sumN_by_key gev_file); try assumption; intros e f; destruct e; cbn; now destruct (Nat.eqb f _).
Qed.

(* if no file has more bytes reported copied than announced, neither has the run: for any log, so for every prefix of
   one that is log_ok *)
Theorem per_file_bound_sums p : (forall f, copied_for f p <= size_for f p) -> g_copied p <= g_size p.
Proof.
  intros H. destruct (totals_by_file p (nodup Nat.eq_dec (map gev_file p)) (NoDup_nodup _ _)) as [A B].
  { intros e He. apply nodup_In. now apply in_map. }
  rewrite A, B. now apply sumN_map_le.
Qed.
