From XcpModel Require Import Base Paths Walker Main.

Section V.
  Variable exists_ is_dir : path -> bool.
  Variable same_file : path -> path -> bool.
  Variable o : opts.

  Lemma check_source_none {dest dd s} :
    check_source exists_ is_dir same_file o dest dd s = None ->
    exists_ s = true /\ is_dir s && negb (o_recursive o) = false /\ path_eqb s dest = false /\
    exists tb, target_base dest s dd (o_no_target_dir o) = Some tb /\
               path_eqb s tb || (exists_ tb && same_file s tb) = false /\
               is_dir s && exists_ tb && negb (is_dir tb) = false.
  Proof.
    unfold check_source. destruct (exists_ s); [|discriminate]. cbn [negb].
    destruct (is_dir s && negb (o_recursive o)); [discriminate|]. destruct (path_eqb s dest); [discriminate|].
    destruct (target_base dest s dd (o_no_target_dir o)) as [tb|]; [|discriminate].
    destruct (path_eqb s tb || _) eqn:E1; [discriminate|]. destruct (is_dir s && exists_ tb && _) eqn:E2; [discriminate|].
    intros _. repeat split. exists tb. auto.
  Qed.

  (* the second clause is what the induction carries; the third is the one about two positions of the list *)
  Lemma check_sources_none {dest dd ss seen} :
    check_sources exists_ is_dir same_file o dest dd seen ss = None ->
    (forall s, In s ss -> check_source exists_ is_dir same_file o dest dd s = None) /\
    (forall s tb, In s ss -> target_base dest s dd (o_no_target_dir o) = Some tb -> existsb (path_eqb tb) seen = false) /\
    (forall l1 s1 l2 s2 tb1 tb2, ss = l1 ++ s1 :: l2 -> In s2 l2 ->
       target_base dest s1 dd (o_no_target_dir o) = Some tb1 -> target_base dest s2 dd (o_no_target_dir o) = Some tb2 ->
       path_eqb tb2 tb1 = false).
  Proof.
    revert seen. induction ss as [|x r IH]; intros seen H.
    - split; [intros s []|]. split; [intros s tb []|]. intros [|? ?]; discriminate.
    - cbn [check_sources] in H. destruct (check_source exists_ is_dir same_file o dest dd x) eqn:Ex; [discriminate|].
      destruct (check_source_none Ex) as (_ & _ & _ & tbx & Etb & _). rewrite Etb in H.
      destruct (existsb (path_eqb tbx) seen) eqn:Eseen; [discriminate|].
      destruct (IH _ H) as (H1 & H2 & H3).
      (* the sources after x avoid x's destination and `seen`: H2, about the list tbx :: seen, split in two *)
      assert (forall s tb, In s r -> target_base dest s dd (o_no_target_dir o) = Some tb ->
                path_eqb tb tbx = false /\ existsb (path_eqb tb) seen = false) as H2'
          by (intros s tb Hs Htb; apply orb_false_iff, (H2 s tb Hs Htb)).
      split; [|split].
      + intros s [<-|Hs]; [exact Ex|exact (H1 s Hs)].
      + intros s tb [<-|Hs] Htb; [rewrite Etb in Htb; now injection Htb as <-|exact (proj2 (H2' s tb Hs Htb))].
      + intros [|y l1] s1 l2 s2 tb1 tb2 E Hs2 E1 E2; injection E as -> ->.
        * rewrite Etb in E1. injection E1 as <-. exact (proj1 (H2' s2 tb2 Hs2 E2)).
        * exact (H3 l1 s1 l2 s2 tb1 tb2 eq_refl Hs2 E1 E2).
  Qed.

  Lemma validate_none {sources dest} :
    validate exists_ is_dir same_file o sources dest = None ->
    sources <> [] /\ ((1 < length sources)%nat -> is_dir dest = true) /\
    check_sources exists_ is_dir same_file o dest (exists_ dest && is_dir dest) [] sources = None.
  Proof.
    unfold validate. destruct sources as [|s0 rest]; [discriminate|].
    destruct (negb (is_dir dest) && _ && is_dir s0 && exists_ dest); [discriminate|].
    destruct (negb (is_dir dest) && _) eqn:Em; [discriminate|]. intros H.
    split; [discriminate|]. split; [|exact H].
    intros Hlen. destruct (is_dir dest); [reflexivity|]. destruct rest; [cbn in Hlen; lia|discriminate].
  Qed.

  (* every invalid invocation is rejected by the validation block — whatever the
     position of the offending source among valid ones *)
  Theorem invalid_rejected sources dest :
    Invalid exists_ is_dir same_file o sources dest ->
    validate exists_ is_dir same_file o sources dest <> None.
  Proof.
    intros H Hv. destruct (validate_none Hv) as (Hne & Hmulti & Hc).
    destruct (check_sources_none Hc) as (Hall & _ & Hdup).
    (* K: what check_source_none says, of every source *)
    assert (forall s, In s sources -> _) as K by (intros s Hs; exact (check_source_none (Hall s Hs))).
    destruct H as [H|s Hin Hex|s Hin Hd Hr|Hlen Hnd|s tb Hin Hd Hm Hex Hnd|s tb Hin Hm Hs|s Hin Hs
                   |l1 s1 l2 s2 tb1 tb2 Hsplit Hin2 Hm1 Hm2 Heq]; unfold mapped in *;
      try (destruct (K s Hin) as (Kex & Krec & Kdest & tb' & Ktb & Ksame & Kfile)).
    - contradiction.
    - rewrite Hex in Kex. discriminate.
    - rewrite Hd, Hr in Krec. discriminate.
    - rewrite (Hmulti Hlen) in Hnd. discriminate.
    - rewrite Hm in Ktb. injection Ktb as <-. rewrite Hd, Hex, Hnd in Kfile. discriminate.
    - rewrite Hm in Ktb. injection Ktb as <-.
      destruct Hs as [Hs|[Hs1 Hs2]]; [rewrite Hs in Ksame|rewrite Hs1, Hs2, orb_true_r in Ksame]; discriminate.
    - rewrite Hs in Kdest. discriminate.
    - rewrite (Hdup l1 s1 l2 s2 tb1 tb2 Hsplit Hin2 Hm1 Hm2) in Heq. discriminate.
  Qed.

  Theorem validate_none_sound sources dest :
    validate exists_ is_dir same_file o sources dest = None ->
    sources <> [] /\
    (forall s, In s sources -> exists_ s = true /\ (is_dir s = true -> o_recursive o = true)) /\
    ((1 < length sources)%nat -> is_dir dest = true).
  Proof.
    intros Hv. destruct (validate_none Hv) as (Hne & Hmulti & Hc).
    destruct (check_sources_none Hc) as (Hall & _). split; [exact Hne|]. split; [|exact Hmulti].
    intros s Hs. destruct (check_source_none (Hall s Hs)) as (Hex & Hrec & _). split; [exact Hex|].
    intros Hd. rewrite Hd in Hrec. now destruct (o_recursive o).
  Qed.

  (* contradictory options are rejected before anything else is looked at: `front` yields no sources to copy *)
  Theorem front_conflict paths oracle :
    o_no_clobber o = true -> o_force o = true ->
    front exists_ is_dir same_file o paths oracle = (Some E_CONFLICT, [], []).
  Proof. intros H1 H2. unfold front. now rewrite H1, H2. Qed.
End V.

(* glob expansion: a malformed pattern, or a pattern selecting nothing at ANY
   position, rejects the whole invocation *)
Lemma expand_globs_rejects pats oracle :
  (In None oracle \/ In (Some []) oracle) ->
  exists e, expand_sources true pats oracle = inr e.
Proof.
  intros H. unfold expand_sources. induction oracle as [|[l|] r IH].
  - destruct H as [[]|[]].
  - destruct l as [|x l].
    + exists E_NOSOURCE. reflexivity.
    + assert (In None r \/ In (Some []) r) as H' by (destruct H as [[H|H]|[H|H]]; try discriminate; auto).
      destruct (IH H') as [e He]. exists e. rewrite He. reflexivity.
  - exists E_GLOB. reflexivity.
Qed.
