From XcpModel Require Import Base Meta.

Lemma xattr_get_set l k v k2 : xattr_get (xattr_set l k v) k2 = if k =? k2 then Some v else xattr_get l k2.
Proof.
  induction l as [|[k' v'] r IH]; cbn [xattr_set xattr_get]; [reflexivity|].
  destruct (N.eqb_spec k' k) as [->|Hk]; cbn [xattr_get]; [now destruct (k =? k2)|].
  rewrite IH. destruct (N.eqb_spec k' k2) as [->|]; [|reflexivity]. now destruct (N.eqb_spec k k2) as [->|].
Qed.

(* the xattr list after setting every attribute of xs, in order *)
Definition set_xattrs (xs l : list (N * N)) : list (N * N) :=
  fold_left (fun l kv => xattr_set l (fst kv) (snd kv)) xs l.

(* ... in which the LAST binding of each source name is present *)
Fixpoint last_binding (l : list (N * N)) (k : N) : option N :=
  match l with
  | [] => None
  | (k', v) :: r => match last_binding r k with Some x => Some x | None => if k' =? k then Some v else None end
  end.

Lemma set_xattrs_get xs : forall l k,
  xattr_get (set_xattrs xs l) k = match last_binding xs k with Some v => Some v | None => xattr_get l k end.
Proof.
  induction xs as [|[k' v] r IH]; intros l k; cbn [set_xattrs fold_left last_binding]; [reflexivity|].
  fold (set_xattrs r (xattr_set l k' v)). rewrite IH. cbn [fst snd]. destruct (last_binding r k); [reflexivity|].
  rewrite xattr_get_set. now destruct (k' =? k).
Qed.

Lemma fold_setxattr xs : forall d,
  fold_left apply_action (map (fun kv => FSetxattr (fst kv) (snd kv)) xs) d =
  mkMeta (m_mode d) (m_uid d) (m_gid d) (m_atime d) (m_mtime d) (set_xattrs xs (m_xattr d)).
Proof. induction xs as [|kv r IH]; intros d; [now destruct d|]. cbn [map fold_left]. now rewrite IH. Qed.

Lemma land_mask_idem m : N.land (N.land m PERM_MASK) PERM_MASK = N.land m PERM_MASK.
Proof. rewrite <- N.land_assoc. f_equal. Qed.

(* finalisation in closed form, field by field: which of source and destination each field comes from *)
Theorem finalise_eq c src dst :
  finalise c src dst =
  mkMeta (if c_no_perms c then if c_ownership c then clear_setid (m_mode dst) else m_mode dst
          else N.land (m_mode src) PERM_MASK)
         (if c_ownership c then m_uid src else m_uid dst) (if c_ownership c then m_gid src else m_gid dst)
         (if c_no_timestamps c then m_atime dst else m_atime src)
         (if c_no_timestamps c then m_mtime dst else m_mtime src)
         (if c_no_perms c then m_xattr dst else set_xattrs (m_xattr src) (m_xattr dst)).
Proof.
  unfold finalise, finalise_actions. destruct c as [np nt ow fs], dst as [mode uid gid atime mtime xattr].
  cbn [c_no_perms c_no_timestamps c_ownership c_fsync]. rewrite !fold_left_app.
  assert (forall d, fold_left apply_action (if fs then [FFsync] else []) d = d) as -> by now destruct fs.
  destruct np; [|rewrite fold_left_app, fold_setxattr]; destruct ow, nt; reflexivity.
Qed.

(* the pinned order loses the set-id bits *)
Lemma ownership_clears_suid_refuted :
  exists c src dst, c_no_perms c = false /\ c_ownership c = true /\
    m_mode (finalise_pinned c src dst) <> N.land (m_mode src) PERM_MASK.
Proof.
  exists (mkFin false false true false), (mkMeta 3565 0 0 1 2 []), (mkMeta 420 0 0 0 0 []).
  split; [reflexivity|]. split; [reflexivity|]. vm_compute. discriminate.
Qed.

Theorem copy_node_spec umask src :
  n_type (copy_node umask src) = n_type src /\
  n_mode (copy_node umask src) = N.land (N.land (n_mode src) PERM_MASK) (PERM_MASK - N.land umask PERM_MASK) /\
  (n_type src = 5 -> n_rdev (copy_node umask src) = n_rdev src).
Proof. unfold copy_node. cbn. repeat split. intros ->. reflexivity. Qed.

Theorem classify_spec ft :
  (classify ft = OpSpecial <-> ft = 3 \/ ft = 4 \/ ft = 5) /\
  (ft = 6 \/ 7 <= ft -> classify ft = OpErrUnsupported).
Proof.
  split; [split|].
  - unfold classify. destruct (N.eqb_spec ft 0); [discriminate|]. destruct (N.eqb_spec ft 1); [discriminate|].
    destruct (N.eqb_spec ft 2); [discriminate|]. destruct (N.eqb_spec ft 3); [auto|].
    destruct (N.eqb_spec ft 4); [auto|]. destruct (N.eqb_spec ft 5); [auto|discriminate].
  - intros [-> | [-> | ->]]; reflexivity.
  - intros H. assert (forall k, k < 6 -> ft =? k = false) as E by (intros k Hk; apply N.eqb_neq; lia).
    unfold classify. now rewrite !E.
Qed.

Theorem special_worker_spec nc ex same umask src :
  (ex = true -> nc = true -> special_worker nc ex same umask src = None) /\
  (ex = true -> nc = false -> same = true -> special_worker nc ex same umask src = None) /\
  (ex = true -> nc = false -> same = false -> special_worker nc ex same umask src = Some [SpUnlink; SpMknod (copy_node umask src)]) /\
  (ex = false -> special_worker nc ex same umask src = Some [SpMknod (copy_node umask src)]).
Proof. unfold special_worker. repeat split; intros; subst; reflexivity. Qed.

(* the source node is never unlinked: when the existing target is the source itself the worker performs no action *)
Theorem special_worker_never_unlinks_source nc umask src :
  special_worker nc true true umask src = None.
Proof. unfold special_worker. destruct nc; reflexivity. Qed.
