(* Translator tie (see ExtractedOk.v): the block size Config::from chooses, the call order of CopyHandle::new, CopyHandle::copy_file and
   parblock::queue_file_blocks. *)
From XcpModel Require Import Base Ops Extracted.
From XcpProofs Require Import BaseProofs.

(* --no-progress selects one block per file (u64::MAX) *)
Theorem x_config_block_size_ok : forall bs,
  x_config_block_size true bs = U64MAX /\ x_config_block_size false bs = bs.
Proof. intros. split; reflexivity. Qed.

Theorem x_copy_new_steps_ok : x_copy_new_steps = copy_new_steps.
Proof. reflexivity. Qed.
Theorem x_copy_file_steps_ok : x_copy_file_steps = copy_file_steps.
Proof. reflexivity. Qed.
Theorem x_queue_file_blocks_steps_ok : x_queue_file_blocks_steps = queue_file_blocks_steps.
Proof. reflexivity. Qed.

(* ... and the model's CopyHandle::new (the prefix of Ops.copy_actions, overwrite with a backup) issues its
   system calls in exactly that order: the extracted steps minus those for which the action list has no action of its
   own (23 the same-file test and 24 the backup decision: their stat calls are merged with the probe 22; 26 / 29 the
   lstat test for a dangling link or a directory in the way; 27 / 28 taking and releasing the backup-step lock; 97 a
   closure; 98 the returns) *)
Theorem copy_new_steps_model : forall fc src dst n len,
  flat_map step_code_of (fst (copy_actions fc src dst (mkEnv true false (Some n) len false false [] 0))) =
  filter (fun c => negb ((c =? 23) || (c =? 24) || (c =? 98) || (c =? 26) || (c =? 27) || (c =? 28) || (c =? 97) || (c =? 29))) x_copy_new_steps.
Proof.
  intros fc src dst n len. unfold copy_actions. simpl (flat_map _ _).
  (* what is left is the part of finalise_copy: whatever the options, none of its actions has a step code *)
  rewrite flat_map_nil by (by_segments; reflexivity). reflexivity.
Qed.
