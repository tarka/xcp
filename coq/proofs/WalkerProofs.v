From XcpModel Require Import Base Backup Walker.
From XcpProofs Require Import BaseProofs BackupProofs.

Lemma rel_eqb_eq a : forall b, rel_eqb a b = true <-> a = b.
Proof.
  induction a as [|x a IH]; intros [|y b]; cbn [rel_eqb]; try (split; congruence).
  rewrite andb_true_iff, name_eqb_eq, IH. split; [intros [-> ->]; reflexivity|intros [= -> ->]; now split].
Qed.

Lemma rel_eqb_refl a : rel_eqb a a = true.
Proof. now apply rel_eqb_eq. Qed.

Lemma rel_eqb_neq a b : a <> b -> rel_eqb a b = false.
Proof. intros H. destruct (rel_eqb a b) eqn:E; [apply rel_eqb_eq in E; contradiction|reflexivity]. Qed.

Lemma existsb_rel_in p l : existsb (rel_eqb p) l = true <-> In p l.
Proof. exact (existsb_eqb_in rel_eqb p l (rel_eqb_eq p)). Qed.

Lemma in_prefixes_self r : existsb (rel_eqb r) (prefixes r) = true.
Proof.
  apply existsb_rel_in. induction r as [|x r IH]; cbn [prefixes]; [now left|]. right. now apply in_map.
Qed.

(* walk, sel_entries and entries look at a node in the same way: the kind it is dispatched on and the children that
   are descended into (those of a link's target directory when dereferencing).  Each of the three is unfolded ONCE
   below, into an equation over `kind_of` and `kids`; every later induction over the tree has a single case. *)
Definition walked (deref : bool) (t : tree) : tree + N :=
  match t with
  | TLink _ res =>
      if deref then
        match res with
        | LDangling => inr 3
        | LLoop | LTarget (TLink _ _) => inr 4
        | LTarget t' => inl t'
        end
      else inl t
  | _ => inl t
  end.

Definition kind_of (deref : bool) (t : tree) : ekind :=
  match walked deref t with
  | inr c => EBroken c
  | inl (TFile len) => EFile len
  | inl (TDir _) => EDir
  | inl (TLink text _) => ELink text
  | inl (TSpecial ft) => ESpecial ft
  | inl (TOther ft) => EOther ft
  end.

Definition kids (deref : bool) (t : tree) : list (name * tree) :=
  match walked deref t with inl (TDir cs) => cs | _ => [] end.

Definition node (deref : bool) (r : rel) (t : tree) : rel * ekind * bool := (r, kind_of deref t, tree_is_dir deref t).

Lemma kids_dir deref t : kids deref t = [] \/ tree_is_dir deref t = true /\ kind_of deref t = EDir.
Proof. destruct t as [| |text [| |[]]| |]; cbn; auto; destruct deref; auto. Qed.

Lemma tree_kids_ind deref (P : tree -> Prop) :
  (forall t, Forall (fun nc => P (snd nc)) (kids deref t) -> P t) -> forall t, P t.
Proof.
  intros H. fix IH 1. intros t. apply H.
  destruct t as [|cs|text [| |[|cs| | |]]| |]; cbn [kids walked]; try destruct deref; try apply Forall_nil;
    induction cs as [|[n c] cs IHcs]; constructor; auto.
Qed.

(* the local fixes over the children are map / flat_map *)
Lemma fix_map {B} (F : name -> tree -> B) cs :
  (fix go (cs : list (name * tree)) : list B :=
     match cs with [] => [] | (n, c) :: rest => F n c :: go rest end) cs = map (fun nc => F (fst nc) (snd nc)) cs.
Proof. induction cs as [|[n c] rest IH]; cbn; [|rewrite IH]; reflexivity. Qed.

Lemma fix_flat_map {B} (F : name -> tree -> list B) cs :
  (fix go (cs : list (name * tree)) : list B :=
     match cs with [] => [] | (n, c) :: rest => F n c ++ go rest end) cs = flat_map (fun nc => F (fst nc) (snd nc)) cs.
Proof. induction cs as [|[n c] rest IH]; cbn; [|rewrite IH]; reflexivity. Qed.

Definition below {B} (f : rel -> tree -> list B) (r : rel) (cs : list (name * tree)) : list B :=
  flat_map (fun nc => f (r ++ [fst nc]) (snd nc)) cs.

Lemma below_cons {B} (f : rel -> tree -> list B) r n c cs : below f r ((n, c) :: cs) = f (r ++ [n]) c ++ below f r cs.
Proof. reflexivity. Qed.

Lemma entries_eq deref r t : entries deref r t = node deref r t :: below (entries deref) r (kids deref t).
Proof.
  unfold node, below. destruct t as [len|cs|text res|ft|ft]; cbn [entries kind_of kids walked]; try reflexivity.
  - now rewrite fix_flat_map.
  - destruct deref; [destruct res as [| |[]]|]; try reflexivity.
    now rewrite fix_flat_map.
Qed.

Lemma sel_entries_eq keep deref r t :
  sel_entries keep deref r t =
  if keep r (tree_is_dir deref t)
  then node deref r t :: below (sel_entries keep deref) r (kids deref t)
  else [].
Proof.
  unfold node, below. destruct t as [len|cs|text res|ft|ft]; cbn [sel_entries]; (destruct (keep r _); cbn [negb]; [|reflexivity]);
    cbn [kind_of kids walked]; try reflexivity.
  - now rewrite fix_flat_map.
  - destruct deref; [destruct res as [| |[]]|]; try reflexivity.
    now rewrite fix_flat_map.
Qed.

(* the no-clobber test in front of a node's own actions, as the head of the sequence *)
Lemma guard_seq cfg dex r a ok ws :
  guard cfg dex r (seq_walks ((a, ok) :: ws)) =
  seq_walks ((if w_no_clobber cfg && dex r then ([WErr 1 r], false) else (a, ok)) :: ws).
Proof. unfold guard. now destruct (_ && _). Qed.

Lemma guard_leaf cfg dex r a ok :
  guard cfg dex r (a, ok) = seq_walks [if w_no_clobber cfg && dex r then ([WErr 1 r], false) else (a, ok)].
Proof. unfold guard. destruct (_ && _), ok; cbn; now rewrite ?app_nil_r. Qed.

Lemma walk_eq cfg keep dex r t :
  walk cfg keep dex r t =
  if keep r (tree_is_dir (w_deref cfg) t)
  then seq_walks (act_of cfg dex (node (w_deref cfg) r t)
                  :: map (fun nc => walk cfg keep dex (r ++ [fst nc]) (snd nc)) (kids (w_deref cfg) t))
  else ([], true).
Proof.
  unfold node. destruct t as [len|cs|text res|ft|ft]; cbn [walk]; (destruct (keep r _); cbn [negb]; [|reflexivity]);
    try apply guard_leaf.
  - rewrite fix_map. apply guard_seq.
  - cbn [kind_of kids walked]. destruct (w_deref cfg); [destruct res as [| |[]]|]; try reflexivity; try apply guard_leaf.
    rewrite fix_map. apply guard_seq.
Qed.

Lemma process_app cfg dex l1 l2 :
  process cfg dex (l1 ++ l2) =
  let '(a, ok) := process cfg dex l1 in
  if ok then let '(b, ok') := process cfg dex l2 in (a ++ b, ok') else (a, false).
Proof.
  induction l1 as [|e r IH]; cbn [app process].
  - destruct (process cfg dex l2); reflexivity.
  - destruct (act_of cfg dex e) as [a [|]]; [|reflexivity].
    rewrite IH. destruct (process cfg dex r) as [b [|]]; [|reflexivity].
    destruct (process cfg dex l2) as [c ok]. now rewrite app_assoc.
Qed.

Lemma seq_walks_process cfg dex {A} (f : A -> list wact * bool) (g : A -> list (rel * ekind * bool)) l :
  Forall (fun x => f x = process cfg dex (g x)) l -> seq_walks (map f l) = process cfg dex (flat_map g l).
Proof.
  induction 1 as [|x l Hx _ IH]; [reflexivity|]. cbn [map flat_map seq_walks]. now rewrite process_app, Hx, IH.
Qed.

(* C17: the walk is the selection (with pruning), processed until the first failure *)
Theorem walk_process cfg keep dex : forall t r,
  walk cfg keep dex r t = process cfg dex (sel_entries keep (w_deref cfg) r t).
Proof.
  induction t as [t IH] using (tree_kids_ind (w_deref cfg)); intros r.
  rewrite walk_eq, sel_entries_eq. destruct (keep r _); [|reflexivity]. cbn [seq_walks process].
  unfold below. rewrite <- (seq_walks_process cfg dex (fun nc => walk cfg keep dex (r ++ [fst nc]) (snd nc))); [reflexivity|].
  revert IH. apply Forall_impl. intros nc H. apply H.
Qed.

Definition e_rel (e : rel * ekind * bool) : rel := fst (fst e).
Definition e_kind (e : rel * ekind * bool) : ekind := snd (fst e).
Definition rels (es : list (rel * ekind * bool)) : list rel := map e_rel es.

Lemma entries_node {deref t r e} : In e (entries deref r t) -> exists s t', e = node deref (r ++ s) t'.
Proof.
  revert r e. induction t as [t IH] using (tree_kids_ind deref); intros r e. rewrite entries_eq. intros [<-|Hin].
  - exists [], t. now rewrite app_nil_r.
  - apply in_flat_map in Hin. destruct Hin as ([n c] & Hc & He). rewrite Forall_forall in IH.
    destruct (IH _ Hc _ _ He) as (s & t' & ->). exists (n :: s), t'. now rewrite <- app_assoc.
Qed.

Lemma below_rels {deref r cs q} :
  In q (rels (below (entries deref) r cs)) -> exists n s, In n (map fst cs) /\ q = r ++ n :: s.
Proof.
  unfold rels. rewrite in_map_iff. intros (e & <- & He). apply in_flat_map in He. destruct He as ([n c] & Hc & He).
  destruct (entries_node He) as (s & t' & ->). exists n, s.
  split; [exact (in_map fst _ _ Hc)|]. cbn. now rewrite <- app_assoc.
Qed.

Lemma kept_from_app keep r s k d : kept_from keep r (r ++ s, k, d) = kept_suffix keep r s d.
Proof. unfold kept_from. now rewrite skipn_app_exact. Qed.

Lemma kept_suffix_true s : forall r d, kept_suffix (fun _ _ => true) r s d = true.
Proof. induction s as [|x s IH]; intros r d; [reflexivity|apply IH]. Qed.

Lemma below_filter keep deref r cs :
  Forall (fun nc => forall r', sel_entries keep deref r' (snd nc) =
                               filter (kept_from keep r') (entries deref r' (snd nc))) cs ->
  filter (kept_from keep r) (below (entries deref) r cs) =
  if keep r true then below (sel_entries keep deref) r cs else [].
Proof.
  intros H. destruct (keep r true) eqn:Hk.
  - induction H as [|[n c] cs Hc _ IH]; [reflexivity|]. rewrite !below_cons, filter_app. f_equal; [|exact IH].
    rewrite Hc. apply filter_ext_in. intros e He. destruct (entries_node He) as (s & t' & ->).
    unfold node. rewrite kept_from_app, <- app_assoc, kept_from_app. cbn [app kept_suffix]. now rewrite Hk.
  - apply filter_none. intros [[q k] d] He.
    destruct (below_rels (q := q) (in_map e_rel _ _ He)) as (n & s & _ & ->).
    rewrite kept_from_app. cbn [kept_suffix]. now rewrite Hk.
Qed.

(* C17: pruning at ignored directories selects the entries with no ignored ancestor-or-self *)
Theorem sel_entries_filter keep deref : forall t r,
  sel_entries keep deref r t = filter (kept_from keep r) (entries deref r t).
Proof.
  induction t as [t IH] using (tree_kids_ind deref); intros r. rewrite sel_entries_eq, entries_eq. cbn [filter].
  rewrite (below_filter keep deref r _ IH). unfold node at 2, kept_from. rewrite skipn_all. cbn [kept_suffix].
  (* a node without children: nothing below it; with children: it is walked as a directory, so both tests are `keep r true` *)
  destruct (kids_dir deref t) as [->|[-> _]]; destruct (keep r true); try destruct (keep r _); reflexivity.
Qed.

Lemma tree_wf_dir cs : tree_wf (TDir cs) = true ->
  names_unique (map fst cs) = true /\ Forall (fun nc => tree_wf (snd nc) = true) cs.
Proof.
  cbn [tree_wf]. intros H. apply andb_true_iff in H. destruct H as [H1 H2]. split; [exact H1|]. clear H1.
  induction cs as [|[n c] rest IH]; [constructor|].
  apply andb_true_iff in H2. destruct H2 as [Hc Hr]. constructor; [exact Hc|now apply IH].
Qed.

Lemma tree_wf_kids deref t : tree_wf t = true ->
  names_unique (map fst (kids deref t)) = true /\ Forall (fun nc => tree_wf (snd nc) = true) (kids deref t).
Proof. destruct t as [|cs|text [| |[|cs| | |]]| |]; cbn [kids]; try destruct deref; auto using tree_wf_dir. Qed.

Lemma below_nodup deref r cs :
  names_unique (map fst cs) = true ->
  Forall (fun nc => forall r', NoDup (rels (entries deref r' (snd nc)))) cs ->
  NoDup (rels (below (entries deref) r cs)).
Proof.
  intros Hu Hc. induction Hc as [|[n c] rest Hc0 _ IH]; [constructor|].
  cbn [map fst names_unique] in Hu. apply andb_true_iff in Hu. destruct Hu as [Hn Hu].
  rewrite below_cons. unfold rels. rewrite map_app.
  apply NoDup_app; [apply Hc0|now apply IH|].
  (* a path of child n among those of the later children: one of them would be called n as well *)
  intros q Hq1 Hq2. apply in_map_iff in Hq1. destruct Hq1 as (e & <- & He).
  destruct (entries_node He) as (s & t' & ->).
  destruct (below_rels Hq2) as (n' & s' & Hn' & Heq).
  cbn in Heq. rewrite <- app_assoc in Heq. apply app_inv_head in Heq. injection Heq as <- _.
  apply (existsb_eqb_in name_eqb n _ (name_eqb_eq n)) in Hn'. rewrite Hn' in Hn. discriminate Hn.
Qed.

Theorem entries_nodup deref : forall t r, tree_wf t = true -> NoDup (rels (entries deref r t)).
Proof.
  induction t as [t IH] using (tree_kids_ind deref); intros r Hwf. rewrite entries_eq.
  destruct (tree_wf_kids deref t Hwf) as [Hu Hall]. constructor.
  - intros Hin. destruct (below_rels Hin) as (n & s & _ & Heq).
    rewrite <- (app_nil_r r), <- app_assoc in Heq. apply app_inv_head in Heq. discriminate.
  - apply below_nodup; [exact Hu|]. rewrite Forall_forall in *. intros nc Hnc r'. apply IH; [assumption|now apply Hall].
Qed.

Theorem sel_entries_nodup keep deref t r : tree_wf t = true -> NoDup (rels (sel_entries keep deref r t)).
Proof. intros H. rewrite sel_entries_filter. apply NoDup_map_filter. now apply entries_nodup. Qed.

Lemma parents_first_app A B : forall seen,
  parents_first seen A = true -> (forall seen', incl seen seen' -> parents_first seen' B = true) ->
  parents_first seen (A ++ B) = true.
Proof.
  induction A as [|[[q k] d] A IH]; intros seen HA HB; [apply HB, incl_refl|].
  cbn [app parents_first] in *. apply andb_true_iff in HA. destruct HA as [H1 H2]. rewrite H1. apply IH; [exact H2|].
  intros seen' Hi. apply HB. intros x Hx. apply Hi. destruct k; auto. now right.
Qed.

Lemma below_parents_first keep deref r cs :
  Forall (fun nc : name * tree => forall r seen, In (removelast r) seen ->
            parents_first seen (sel_entries keep deref r (snd nc)) = true) cs ->
  forall seen, In r seen ->
  parents_first seen (below (sel_entries keep deref) r cs) = true.
Proof.
  induction 1 as [|[n c] rest Hc0 _ IHrest]; intros seen Hr; [reflexivity|].
  rewrite below_cons. apply parents_first_app.
  - apply Hc0. now rewrite removelast_last.
  - intros seen' Hi. apply IHrest, Hi, Hr.
Qed.

Theorem sel_parents_first keep deref : forall t r seen,
  In (removelast r) seen -> parents_first seen (sel_entries keep deref r t) = true.
Proof.
  induction t as [t IH] using (tree_kids_ind deref); intros r seen Hin.
  rewrite sel_entries_eq. destruct (keep r _); [|reflexivity]. cbn [node parents_first].
  rewrite (proj2 (existsb_rel_in _ _) Hin). destruct (kids_dir deref t) as [E|[_ E]]; rewrite E; [reflexivity|].
  apply (below_parents_first keep deref r _ IH). now left.
Qed.

(* what parents_first says about positions *)
Theorem parents_first_spec {A seen q k d B} :
  parents_first seen (A ++ (q, k, d) :: B) = true ->
  In (removelast q) seen \/ exists d', In (removelast q, EDir, d') A.
Proof.
  revert seen. induction A as [|[[q0 k0] d0] A IH]; intros seen Hp; cbn [app parents_first] in Hp;
    apply andb_true_iff in Hp; destruct Hp as [Hq Hp].
  - left. now apply existsb_rel_in.
  - destruct (IH _ Hp) as [Hin|[d' Hin]]; [|right; exists d'; now right].
    destruct k0; try (now left). destruct Hin as [<-|Hin]; [right; exists d0; now left|now left].
Qed.

(* C06: in the selected list, every entry but the first comes after its parent directory *)
Theorem sel_parent_before {keep deref t r A q k d B} :
  sel_entries keep deref r t = A ++ (q, k, d) :: B -> q <> r -> exists d', In (removelast q, EDir, d') A.
Proof.
  rewrite sel_entries_eq. destruct (keep r _); [|destruct A; discriminate]. intros E Hq.
  destruct A as [|e0 A]; injection E as E1 E2; [congruence|]. subst e0.
  assert (parents_first [r] (A ++ (q, k, d) :: B) = true) as Hp.
  { rewrite <- E2. apply below_parents_first; [|now left].
    apply Forall_forall. intros nc _. apply sel_parents_first. }
  destruct (parents_first_spec Hp) as [[<-|[]]|[d' Hin]]; [|exists d'; right; exact Hin].
  (* the parent is r itself: r has children, so its own entry, the first of the list, is a directory *)
  destruct (kids_dir deref t) as [Hk|[_ Hk]]; [rewrite Hk in E2; destruct A; discriminate|].
  eexists. left. unfold node. rewrite Hk. reflexivity.
Qed.

Definition acts_for (r : rel) (k : dkind) : list wact :=
  match k with
  | DFile len => [WSize len; WCopy r len]
  | DDir => [WMkdir r]
  | DLink text => [WLink r text]
  | DNode ft => [WSpecial r ft]
  end.

(* an entry either fails with one error at its own path, or passes the no-clobber test and emits the actions that
   make what `expect_kind` says *)
Lemma act_of_spec cfg dex e :
  (exists c, act_of cfg dex e = ([WErr c (e_rel e)], false)) \/
  w_no_clobber cfg && dex (e_rel e) = false /\
  exists k, expect_kind (e_kind e) = Some k /\ act_of cfg dex e = (acts_for (e_rel e) k, true).
Proof.
  destruct e as [[r k] d]. unfold act_of, e_rel, e_kind. cbn [fst snd].
  destruct k as [len| |text|ft|ft|c].
  6: { (* EBroken: fails before the no-clobber test *) left. now exists c. }
  all: destruct (w_no_clobber cfg && dex r); [left; now exists 1|].
  5: { (* EOther: an unsupported file type *) left. now exists 2. }
  all: right; split; [reflexivity|]; eexists; split; reflexivity.
Qed.

Lemma act_of_ok {cfg dex e} :
  snd (act_of cfg dex e) = true ->
  w_no_clobber cfg && dex (e_rel e) = false /\
  exists k, expect_kind (e_kind e) = Some k /\ fst (act_of cfg dex e) = acts_for (e_rel e) k.
Proof. destruct (act_of_spec cfg dex e) as [[c ->]|(H & k & Hk & ->)]; [discriminate|]. eauto. Qed.

Lemma act_of_in {cfg dex e a} :
  In a (fst (act_of cfg dex e)) ->
  (exists c, a = WErr c (e_rel e)) \/
  w_no_clobber cfg && dex (e_rel e) = false /\ exists k, expect_kind (e_kind e) = Some k /\ In a (acts_for (e_rel e) k).
Proof.
  destruct (act_of_spec cfg dex e) as [[c ->]|(H & k & Hk & ->)]; cbn [fst]; [intros [<-|[]]|]; eauto.
Qed.

Lemma acts_for_rel {r k a q} : In a (acts_for r k) -> act_rel a = Some q -> q = r.
Proof. destruct k; cbn; intros H Hq; repeat (destruct H as [<-|H]; [cbn in Hq; congruence|]); destruct H. Qed.

Lemma act_of_rels {cfg dex e a q} : In a (fst (act_of cfg dex e)) -> act_rel a = Some q -> q = e_rel e.
Proof.
  intros Ha Hq. destruct (act_of_in Ha) as [[c ->]|(_ & k & _ & Hin)].
  - cbn in Hq. congruence.
  - exact (acts_for_rel Hin Hq).
Qed.

Lemma acts_rels {cfg dex es a q} :
  In a (flat_map (fun e => fst (act_of cfg dex e)) es) -> act_rel a = Some q -> In q (rels es).
Proof.
  intros Ha Hq. apply in_flat_map in Ha. destruct Ha as (e & He & Ha).
  rewrite (act_of_rels Ha Hq). now apply in_map.
Qed.

(* the entries' actions in order, up to the first entry that fails: all of them when the result is a success *)
Lemma process_prefix {cfg dex es acts ok} :
  process cfg dex es = (acts, ok) ->
  exists tail, flat_map (fun e => fst (act_of cfg dex e)) es = acts ++ tail /\
    (ok = true -> tail = [] /\ forall e, In e es -> snd (act_of cfg dex e) = true).
Proof.
  revert acts ok. induction es as [|e es IH]; intros acts ok H; cbn [process flat_map] in *.
  - injection H as <- <-. exists []. repeat split. intros e [].
  - destruct (act_of cfg dex e) as [a [|]] eqn:Ea; cbn [fst].
    + destruct (process cfg dex es) as [b ok']. injection H as <- <-.
      destruct (IH b ok' eq_refl) as (tail & E & Hok). exists tail. rewrite E, app_assoc. split; [reflexivity|].
      intros Hk. destruct (Hok Hk) as [Ht Hall]. split; [exact Ht|]. intros e' [<-|He']; [now rewrite Ea|now apply Hall].
    + injection H as <- <-. eexists. split; [reflexivity|discriminate].
Qed.

Lemma walk_ok {cfg keep dex r t acts} :
  walk cfg keep dex r t = (acts, true) ->
  acts = flat_map (fun e => fst (act_of cfg dex e)) (sel_entries keep (w_deref cfg) r t) /\
  forall e, In e (sel_entries keep (w_deref cfg) r t) -> snd (act_of cfg dex e) = true.
Proof.
  rewrite walk_process. intros H. destruct (process_prefix H) as (tail & E & Hok).
  destruct (Hok eq_refl) as [Ht Hall]. rewrite E, Ht, app_nil_r. auto.
Qed.

Lemma walk_in {cfg keep dex r t acts ok a} :
  walk cfg keep dex r t = (acts, ok) -> In a acts ->
  exists e, In e (sel_entries keep (w_deref cfg) r t) /\ In a (fst (act_of cfg dex e)).
Proof.
  rewrite walk_process. intros H Ha. destruct (process_prefix H) as (tail & E & _).
  apply in_flat_map. rewrite E. apply in_or_app. now left.
Qed.

Theorem walk_noclobber_untouched cfg keep dex r t acts ok a q :
  w_no_clobber cfg = true -> walk cfg keep dex r t = (acts, ok) ->
  In a acts -> is_err a = false -> act_rel a = Some q -> dex q = false.
Proof.
  intros Hnc Hw Ha He Hq. destruct (walk_in Hw Ha) as (e & _ & Hin).
  destruct (act_of_in Hin) as [[c ->]|(Hd & k & _ & Hk)]; [discriminate|].
  rewrite (acts_for_rel Hk Hq). now rewrite Hnc in Hd.
Qed.

Lemma walk_fails {cfg keep dex r t e} :
  In e (sel_entries keep (w_deref cfg) r t) -> snd (act_of cfg dex e) = false -> snd (walk cfg keep dex r t) = false.
Proof.
  intros Hin He. destruct (walk cfg keep dex r t) as [acts [|]] eqn:Ew; [|reflexivity].
  now rewrite (proj2 (walk_ok Ew) e Hin) in He.
Qed.

Theorem walk_noclobber_collision_fails cfg keep dex r t e :
  w_no_clobber cfg = true -> In e (sel_entries keep (w_deref cfg) r t) -> dex (e_rel e) = true ->
  snd (walk cfg keep dex r t) = false.
Proof.
  intros Hnc Hin Hd. apply (walk_fails Hin).
  destruct (act_of_spec cfg dex e) as [[c ->]|[H _]]; [reflexivity|]. rewrite Hnc, Hd in H. discriminate H.
Qed.

Theorem walk_deref_broken_fails cfg keep dex r t q c d :
  In (q, EBroken c, d) (sel_entries keep (w_deref cfg) r t) -> snd (walk cfg keep dex r t) = false.
Proof. intros Hin. now apply (walk_fails Hin). Qed.

Theorem walk_deref_no_links keep dex nc r t acts ok a :
  walk (mkW nc true) keep dex r t = (acts, ok) -> In a acts -> forall q text, a <> WLink q text.
Proof.
  intros Hw Ha q text ->. destruct (walk_in Hw Ha) as (e & He & Hin). cbn [w_deref] in He.
  rewrite sel_entries_filter in He. apply filter_In in He. destruct He as [He _].
  destruct (entries_node He) as (s & t' & ->).
  destruct (act_of_in Hin) as [[c Hc]|(_ & k & Hk & Hl)]; [discriminate|].
  (* only a link entry emits WLink, and under dereference no node is one *)
  destruct k; cbn in Hl; repeat (destruct Hl as [Hl|Hl]; try discriminate Hl); try contradiction.
  destruct t' as [| |? [| |[]]| |]; discriminate Hk.
Qed.

Definition file_len (e : rel * ekind * bool) : N := match e_kind e with EFile len => len | _ => 0 end.
Definition size_of_act (a : wact) : N := match a with WSize n => n | _ => 0 end.

Lemma acts_sizes cfg dex es :
  (forall e, In e es -> snd (act_of cfg dex e) = true) ->
  sumN (map size_of_act (flat_map (fun e => fst (act_of cfg dex e)) es)) = sumN (map file_len es).
Proof.
  induction es as [|e es IH]; intros H; [reflexivity|]. cbn [flat_map map sumN].
  rewrite map_app, sumN_app, IH by (intros e' He'; apply H; now right). f_equal.
  destruct (act_of_ok (H e (or_introl eq_refl))) as (_ & k & Hk & ->). unfold file_len.
  destruct (e_kind e); try discriminate; injection Hk as <-; [apply N.add_0_r|reflexivity..].
Qed.

Theorem walk_sizes_sum cfg keep dex r t acts :
  walk cfg keep dex r t = (acts, true) ->
  sumN (map size_of_act acts) = sumN (map file_len (sel_entries keep (w_deref cfg) r t)).
Proof. intros Hw. destruct (walk_ok Hw) as [-> Hall]. now apply acts_sizes. Qed.

Lemma apply_walk_app d a b : apply_walk d (a ++ b) = apply_walk (apply_walk d a) b.
Proof. apply fold_left_app. Qed.

(* frame: a path keeps its value under actions none of which targets it or creates it as a missing ancestor *)
Lemma apply_walk_frame : forall acts (d : dmap) q,
  (forall a r, In a acts -> act_rel a = Some r -> is_err a = false ->
     q <> r /\ (d q = None -> existsb (rel_eqb q) (prefixes r) = false)) ->
  apply_walk d acts q = d q.
Proof.
  unfold apply_walk. induction acts as [|a acts IH]; intros d q H; [reflexivity|]. cbn [fold_left].
  assert (apply_wact d a q = d q) as E.
  { destruct a as [n|r len|r text|r|r ft|c r]; cbn [apply_wact]; try reflexivity;
      destruct (H _ r (or_introl eq_refl) eq_refl eq_refl) as [Hne Hp]; try (unfold dset; now rewrite (rel_eqb_neq _ _ Hne)).
    unfold dmkdir_all. destruct (d q); [now destruct (existsb _ _)|now rewrite Hp]. }
  rewrite IH, E; [reflexivity|]. intros a' r Ha'. rewrite E. apply H. now right.
Qed.

Lemma acts_for_effect r k d :
  (k = DDir -> d r = None \/ d r = Some DDir) ->
  apply_walk d (acts_for r k) r = Some k /\
  (forall q, q <> r -> apply_walk d (acts_for r k) q = d q \/ (d q = None /\ apply_walk d (acts_for r k) q = Some DDir)).
Proof.
  intros Hd. unfold apply_walk. destruct k; cbn [acts_for fold_left apply_wact].
  1, 3, 4: unfold dset; rewrite rel_eqb_refl; split; [reflexivity|]; intros q Hq; left; now rewrite (rel_eqb_neq q r Hq).
  unfold dmkdir_all. rewrite in_prefixes_self. split.
  - destruct (Hd eq_refl) as [-> | ->]; reflexivity.
  - intros q _. destruct (existsb _ _), (d q); auto.
Qed.

Theorem walk_noclobber_frame cfg keep dex r t acts ok (d : dmap) :
  w_no_clobber cfg = true -> (forall q, d q <> None -> dex q = true) ->
  walk cfg keep dex r t = (acts, ok) ->
  forall q k, d q = Some k -> apply_walk d acts q = Some k.
Proof.
  intros Hnc Hdex Hw q k Hq. rewrite <- Hq. apply apply_walk_frame. intros a r0 Ha Hr He.
  split; [intros <-|congruence].
  pose proof (walk_noclobber_untouched cfg keep dex r t acts ok a q Hnc Hw Ha He Hr) as H.
  rewrite Hdex in H; congruence.
Qed.

(* C02's frame (a path that is no selected entry's and above none keeps its value): it needs neither success nor tree_wf *)
Theorem walk_frame cfg keep dex r t (d : dmap) acts ok :
  walk cfg keep dex r t = (acts, ok) ->
  forall q, (forall e, In e (sel_entries keep (w_deref cfg) r t) -> existsb (rel_eqb q) (prefixes (e_rel e)) = false) ->
  apply_walk d acts q = d q.
Proof.
  intros Hw q Hq. apply apply_walk_frame. intros a r0 Ha Hr _.
  destruct (walk_in Hw Ha) as (e & He & Hin).
  rewrite (act_of_rels Hin Hr). split; [|intros _; now apply Hq].
  intros ->. specialize (Hq e He). rewrite in_prefixes_self in Hq. discriminate Hq.
Qed.

Definition dir_ok (d : dmap) (e : rel * ekind * bool) : Prop :=
  e_kind e = EDir -> d (e_rel e) = None \/ d (e_rel e) = Some DDir.

Theorem acts_mirror cfg dex : forall es d,
  (forall e, In e es -> snd (act_of cfg dex e) = true) -> NoDup (rels es) -> (forall e, In e es -> dir_ok d e) ->
  forall e, In e es ->
  apply_walk d (flat_map (fun e => fst (act_of cfg dex e)) es) (e_rel e) = expect_kind (e_kind e).
Proof.
  induction es as [|e0 rest IH]; intros d Hall Hnd Hok e Hin; [destruct Hin|].
  inversion Hnd as [|? ? Hx Hnd']; subst.
  destruct (act_of_ok (Hall e0 (or_introl eq_refl))) as (_ & k & Hk & Ea).
  destruct (acts_for_effect (e_rel e0) k d) as [Hself Hother].
  { intros ->. apply (Hok e0 (or_introl eq_refl)). destruct (e_kind e0); try discriminate. reflexivity. }
  cbn [flat_map]. rewrite Ea, apply_walk_app. destruct Hin as [<-|Hin].
  - (* the entry's own operations; the rest never target its path again *)
    rewrite Hk, <- Hself. apply apply_walk_frame. intros a q Ha Hq _. split; [|rewrite Hself; discriminate].
    intros <-. exact (Hx (acts_rels Ha Hq)).
  - apply IH; [intros e' He'; apply Hall; now right|exact Hnd'| |exact Hin].
    intros e' He' Hd. assert (e_rel e' <> e_rel e0) as Hne by (intros Heq; apply Hx; rewrite <- Heq; now apply in_map).
    destruct (Hother _ Hne) as [-> | [_ ->]]; [apply Hok; [now right|exact Hd]|now right].
Qed.

Theorem walk_mirror cfg keep dex r t (d : dmap) acts :
  walk cfg keep dex r t = (acts, true) -> tree_wf t = true ->
  (forall e, In e (sel_entries keep (w_deref cfg) r t) -> dir_ok d e) ->
  (forall e, In e (sel_entries keep (w_deref cfg) r t) ->
     apply_walk d acts (e_rel e) = expect_kind (e_kind e)) /\
  (forall q, (forall e, In e (sel_entries keep (w_deref cfg) r t) ->
                existsb (rel_eqb q) (prefixes (e_rel e)) = false) ->
     apply_walk d acts q = d q).
Proof.
  intros Hw Hwf Hok. split; [|exact (walk_frame cfg keep dex r t d acts true Hw)].
  destruct (walk_ok Hw) as [-> Hall].
  apply (acts_mirror cfg dex _ d Hall); [now apply sel_entries_nodup|exact Hok].
Qed.

(* an operand that is a symbolic link, not dereferenced (the iterator follows a link given as the root only under
   --dereference: `follow_root_links(config.dereference)`, repair of a round-5 defect): the walk consists of re-creating
   that one link, or of the no-clobber refusal — nothing is looked at, created or written below it, whatever the link
   designates *)
Theorem link_operand_is_one_action : forall cfg keep dexists text res,
  w_deref cfg = false -> keep [] (tree_is_dir false (TLink text res)) = true ->
  walk cfg keep dexists [] (TLink text res) =
    if w_no_clobber cfg && dexists [] then ([WErr 1 []], false) else ([WLink [] text], true).
Proof. intros cfg keep dexists text res Hd Hk. cbn [walk]. rewrite Hd, Hk. reflexivity. Qed.
