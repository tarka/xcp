(* Translator tie (see ExtractedOk.v): the per-entry dispatch of operations::tree_walker and the text of what surrounds it, the
   query of paths::ignore_filter. *)
From XcpModel Require Import Base Walker Extracted.
From Coq Require Import String.

Definition wact_code (a : wact) : N :=
  match a with WSize _ => 0 | WCopy _ _ => 1 | WLink _ _ => 2 | WMkdir _ => 3 | WSpecial _ _ => 4 | WErr _ _ => 5 end.
Definition kind_of_ft (ft : N) : ekind :=
  if ft =? 0 then EFile 0 else if ft =? 1 then EDir else if ft =? 2 then ELink [] else if ft <=? 5 then ESpecial ft else EOther ft.

(* the per-entry dispatch of the walker (which operations / updates each file type produces, and in which order:
   Size BEFORE the Copy operation is queued) is the model's act_of *)
Theorem x_walker_dispatch_ok :
  Forall (fun p => map wact_code (fst (act_of (mkW false false) (fun _ => false) ([], kind_of_ft (fst p), false))) = snd p)
         x_walker_dispatch /\
  map fst x_walker_dispatch = [0; 1; 2; 3; 4; 5; 6; 7].
Proof. split; [repeat constructor|reflexivity]. Qed.

(* the no-clobber check runs before the dispatch, stops the walk, and probes the target WITHOUT following links;
   the walk follows links exactly when dereferencing and prunes with the ignore filter; `from` is the canonical path
   exactly when dereferencing; the kind is taken from lstat(from); the target is target_base joined with the path
   relative to the source.  (This is the text Walker.v was written against; an edit shows up here.) *)
Theorem x_walker_shape_ok :
  x_walker_noclobber_stops_before_dispatch = true /\
  x_walker_noclobber_condition = "config.no_clobber&&target.symlink_metadata().is_ok()"%string /\
  x_walker_iterator = (["WalkDir::new(&source)";
   "follow_links(config.dereference)";
   "follow_root_links(config.dereference)";
   "into_iter()";
   "filter_entry(|e|ignore_filter(e,&gitignore))"])%string /\
  x_walker_entry_prelude = (["letepath=entry?.into_path();";
   "letfrom=ifconfig.dereference{letcpath=canonicalize(&epath)?;debug!(""Dereferencing{:?}into{:?}"",epath,cpath);cpath}else{epath.clone()};";
   "letmeta=from.symlink_metadata()?;";
   "letpath=epath.strip_prefix(&source)?;";
   "lettarget=if!empty_path(path){target_base.join(path)}else{target_base.clone()};";
   "letft=FileType::from(meta.file_type());"])%string /\
  x_walker_source_prelude = (["letsourcedir=source.components().next_back().ok_or(XcpError::InvalidSource(""Failedtofindsourcedirectoryname.""))?;";
   "lettarget_base=ifdest.exists()&&dest.is_dir()&&!config.no_target_directory&&sourcedir!=Component::ParentDir{dest.join(sourcedir)}else{dest.to_path_buf()};";
   "letgitignore=parse_ignore(&source,config)?;"])%string.
(* one term, checked once: every tactic step on this goal goes over its string literals again *)
Proof. exact (conj eq_refl (conj eq_refl (conj eq_refl (conj eq_refl eq_refl)))). Qed.

(* ignore_filter: the ONE query it puts to the matcher is about the walked entry's own path and the walked entry's own
   type (walkdir's file_type: the link itself unless the iterator follows links, which by x_walker_shape_ok it does
   exactly under --dereference) — the flag Walker.tree_is_dir models; and the only entry it lets through unasked is the
   source root *)
Theorem x_ignore_filter_query_ok :
  x_ignore_filter_query = ("entry.path()", "entry.file_type().is_dir()")%string /\
  x_ignore_filter_unasked = ["entry.depth()==0"]%string.
Proof. split; reflexivity. Qed.
