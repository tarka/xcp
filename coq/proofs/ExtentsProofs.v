(* Extents.merge_extents: what every output extent inherits from the inputs comes from merge_go_Forall; the two
   inclusions between the bytes covered before and after, and sortedness, are inductions over merge_go of their own. *)
From XcpModel Require Import Base Extents.

Lemma covered_cons e l i : covered (e :: l) i <-> ext_covers e i \/ covered l i.
Proof. unfold covered. rewrite <- !Exists_exists. apply Exists_cons. Qed.

Lemma covered_nil i : ~ covered [] i.
Proof. intros [x [[] _]]. Qed.

Lemma merge_go_covers l : forall p i,
  Forall ext_wf (p :: l) -> covered (p :: l) i -> covered (merge_go p l) i.
Proof.
  induction l as [|e r IH]; intros p i Hwf H; cbn [merge_go]; [exact H|].
  apply Forall_cons_iff in Hwf as [Hp [He Hr]%Forall_cons_iff].
  destruct (N.eqb_spec (e_start e) (e_end p + 1)) as [Heq|_].
  - apply IH; [constructor; [unfold ext_wf in *; cbn; lia|exact Hr]|]. apply covered_cons.
    apply covered_cons in H as [H|[H|H]%covered_cons]; [left|left|now right];
      unfold ext_covers, ext_wf in *; cbn; lia.
  - apply covered_cons. apply covered_cons in H as [H|H]; [now left|right]. apply IH; [now constructor|exact H].
Qed.

Lemma merge_covers l i :
  Forall ext_wf l -> covered l i -> covered (merge_extents l) i.
Proof. destruct l as [|e r]; [trivial|apply merge_go_covers]. Qed.

Lemma gap_bytes_cons p e r i :
  In i (gap_bytes (p :: e :: r)) <-> e_start e = e_end p + 1 /\ i = e_end p \/ In i (gap_bytes (e :: r)).
Proof.
  change (gap_bytes (p :: e :: r))
    with (if e_start e =? e_end p + 1 then e_end p :: gap_bytes (e :: r) else gap_bytes (e :: r)).
  destruct (N.eqb_spec (e_start e) (e_end p + 1)) as [Heq|Hne]; cbn [In]; split.
  - intros [<-|H]; [left; now split|now right].
  - intros [[_ ->]|H]; [now left|now right].
  - now right.
  - intros [[Heq _]|H]; [contradiction|exact H].
Qed.

Lemma gap_bytes_head p p' l : e_end p = e_end p' -> gap_bytes (p :: l) = gap_bytes (p' :: l).
Proof. intros H. destruct l as [|e r]; cbn [gap_bytes]; [reflexivity|]. now rewrite H. Qed.

Lemma merge_go_adds_only_gaps l : forall p i,
  covered (merge_go p l) i -> covered (p :: l) i \/ In i (gap_bytes (p :: l)).
Proof.
  induction l as [|e r IH]; intros p i H; cbn [merge_go] in H; [now left|].
  rewrite gap_bytes_cons, (covered_cons p).
  destruct (N.eqb_spec (e_start e) (e_end p + 1)) as [Heq|_].
  - apply IH in H. rewrite (gap_bytes_head _ e) in H by reflexivity. rewrite (covered_cons e).
    destruct H as [[H|H]%covered_cons|H]; [|auto..]. unfold ext_covers in *; cbn [e_start e_end] in H.
    (* the joined extent covers p, the byte between, and e *)
    destruct (N.lt_trichotomy i (e_end p)) as [Hlt|[->|Hgt]];
      [left; left; lia|right; left; now split|left; right; left; lia].
  - apply covered_cons in H as [H|[H|H]%IH]; auto.
Qed.

Lemma merge_adds_only_gaps l i :
  covered (merge_extents l) i -> covered l i \/ In i (gap_bytes l).
Proof. destruct l as [|e r]; [now left|apply merge_go_adds_only_gaps]. Qed.

Lemma gap_bytes_spec l i :
  In i (gap_bytes l) <->
  exists l1 p e l2, l = l1 ++ p :: e :: l2 /\ e_start e = e_end p + 1 /\ i = e_end p.
Proof.
  split.
  - induction l as [|p [|e r] IH]; [intros []..|].
    intros [[Heq ->]|(l1 & p' & e' & l2 & -> & H)%IH]%gap_bytes_cons.
    + exists [], p, e, r. auto.
    + exists (p :: l1), p', e', l2. auto.
  - intros (l1 & p & e & l2 & -> & Heq & ->). induction l1 as [|a l1 IH]; cbn [app].
    + apply gap_bytes_cons. now left.
    + destruct l1; apply gap_bytes_cons; now right.
Qed.

Lemma sorted_from_weaken l : forall lo lo', lo' <= lo -> sorted_from lo l -> sorted_from lo' l.
Proof. destruct l as [|e r]; cbn; intros lo lo' H Hs; [exact I|]. intuition lia. Qed.

Lemma merge_go_sorted l : forall p lo,
  sorted_from lo (p :: l) -> sorted_from lo (merge_go p l).
Proof.
  induction l as [|e r IH]; intros p lo H; cbn [merge_go]; [exact H|].
  cbn [sorted_from] in H. destruct H as (H1&H2&H3&H4&H5).
  destruct (N.eqb_spec (e_start e) (e_end p + 1)) as [Heq|Hne].
  - apply IH. cbn [sorted_from e_start e_end]. repeat split; try lia. exact H5.
  - cbn [sorted_from]. repeat split; try assumption. apply IH.
    cbn [sorted_from]. repeat split; assumption.
Qed.

Lemma merge_sorted l : sorted_disjoint l -> sorted_disjoint (merge_extents l).
Proof. destruct l as [|e r]; [trivial|]. apply merge_go_sorted. Qed.

Lemma sorted_from_wf lo l : sorted_from lo l -> Forall ext_wf l.
Proof.
  revert lo; induction l as [|e r IH]; intros lo H; [constructor|].
  cbn in H. destruct H as (_&H2&H3). constructor; [exact H2|exact (IH _ H3)].
Qed.

Lemma merge_go_length l : forall p, (length (merge_go p l) <= S (length l))%nat.
Proof.
  induction l as [|e r IH]; intros p; cbn [merge_go length]; [lia|].
  destruct (e_start e =? e_end p + 1); cbn [length]; [apply le_S|apply le_n_S]; apply IH.
Qed.

Lemma merge_length l : (length (merge_extents l) <= length l)%nat.
Proof. destruct l as [|e r]; cbn [merge_extents length]; [lia|]. apply merge_go_length. Qed.

Lemma merge_go_nonempty l : forall p, merge_go p l <> [].
Proof.
  induction l as [|e r IH]; intros p; cbn [merge_go]; [discriminate|].
  destruct (e_start e =? e_end p + 1); [apply IH|discriminate].
Qed.

(* a property of extents that joining two adjacent extents preserves passes from the inputs to the outputs *)
Lemma merge_go_Forall (Q : extent -> Prop) :
  (forall a b, Q a -> Q b -> e_start b = e_end a + 1 ->
               Q (mkExt (e_start a) (e_end b) (e_shared a && e_shared b))) ->
  forall l p, Forall Q (p :: l) -> Forall Q (merge_go p l).
Proof.
  intros HQ. induction l as [|e r IH]; intros p H; cbn [merge_go]; [exact H|].
  inversion H as [|? ? Hp Hl]; inversion Hl as [|? ? He Hr]; subst.
  destruct (N.eqb_spec (e_start e) (e_end p + 1)) as [Heq|_].
  - apply IH. constructor; [apply HQ|]; assumption.
  - constructor; [exact Hp|apply IH, Hl].
Qed.

Lemma merge_go_wf l : forall p, ext_wf p -> Forall ext_wf l -> Forall ext_wf (merge_go p l).
Proof. intros p Hp Hl. apply merge_go_Forall; [unfold ext_wf; cbn; lia|now constructor]. Qed.

Lemma merge_boundaries l x :
  In x (merge_extents l) ->
  (exists a, In a l /\ e_start x = e_start a) /\
  (exists b, In b l /\ e_end x = e_end b).
Proof.
  destruct l as [|p r]; [intros []|]. revert x. refine (proj1 (Forall_forall _ _) _). apply merge_go_Forall.
  - intros a b [Ha _] [_ Hb] _. split; assumption.
  - apply Forall_forall. intros a Ha. split; exists a; auto.
Qed.

(* of the inputs an output swallowed, this speaks of the first only *)
Lemma merge_go_shared l : forall p x,
  In x (merge_go p l) -> e_shared x = true ->
  exists a, In a (p :: l) /\ e_start a = e_start x /\ e_shared a = true.
Proof.
  intros p. refine (proj1 (Forall_forall _ _) _). apply merge_go_Forall.
  - intros a b Ha _ _ [Hs _]%andb_true_iff. exact (Ha Hs).
  - apply Forall_forall. intros a Ha Hs. now exists a.
Qed.

(* sensitivity: the well-formedness guard of merge_covers is needed, and the added gap byte is real *)
Lemma merge_covers_needs_wf :
  exists l i, covered l i /\ ~ covered (merge_extents l) i.
Proof.
  exists [mkExt 10 5 false; mkExt 6 8 false], 6. split.
  - exists (mkExt 6 8 false). split; [right; now left|unfold ext_covers; cbn; lia].
  - intros [x [Hx Hc]]. cbn in Hx. destruct Hx as [<-|[]].
    unfold ext_covers in Hc; cbn in Hc. lia.
Qed.

Lemma merge_gap_is_added :
  exists l i, Forall ext_wf l /\ sorted_disjoint l /\ ~ covered l i /\ covered (merge_extents l) i.
Proof.
  exists [mkExt 0 4096 false; mkExt 4097 8192 false], 4096.
  split; [|split; [|split]].
  - repeat constructor; unfold ext_wf; cbn; lia.
  - unfold sorted_disjoint; cbn; lia.
  - intros [x [Hx Hc]]. cbn in Hx. unfold ext_covers in Hc.
    destruct Hx as [<-|[<-|[]]]; cbn in Hc; lia.
  - exists (mkExt 0 8192 false). split; [now left|unfold ext_covers; cbn; lia].
Qed.

(* the flat encoding that Run.run_merge takes and returns loses nothing *)
Lemma decode_encode l : decode_exts (encode_exts l) = l.
Proof.
  induction l as [|[s e sh] r IH]; [reflexivity|]. cbn [encode_exts decode_exts e_start e_end e_shared].
  rewrite IH. destruct sh; reflexivity.
Qed.
