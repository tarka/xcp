(* Sparse.map_extents against the FIEMAP contract kernel_fiemap, and the SEEK_DATA/SEEK_HOLE walk against the layout
   contract k_seek_data/k_seek_hole.  Both loops keep asking one fixed kernel function, so each invariant splits the
   kernel's list into what is behind the current position and what is still to come. *)
From XcpModel Require Import Base Extents Sparse.
From XcpProofs Require Import BaseProofs.

Lemma firstn_skipn_last {A} (n : nat) (l : list A) (d : A) :
  firstn n l <> [] ->
  exists pre, firstn n l = pre ++ [last (firstn n l) d].
Proof.
  intros H. exists (removelast (firstn n l)). now apply app_removelast_last.
Qed.

Lemma fexts_ok_bounds L : forall lo y, fexts_ok lo L -> In y L ->
  lo <= fe_logical y /\ lo < fext_end y.
Proof.
  induction L as [|e r IH]; intros lo y H Hy; [destruct Hy|].
  cbn [fexts_ok] in H. destruct H as (H1&H2&H3&H4).
  destruct Hy as [<-|Hy]; [unfold fext_end; lia|].
  specialize (IH _ _ H4 Hy). unfold fext_end in *. lia.
Qed.

Lemma fexts_ok_weaken L : forall lo lo', lo' <= lo -> fexts_ok lo L -> fexts_ok lo' L.
Proof. destruct L as [|e r]; cbn; intros lo lo' H Hs; [exact I|]. intuition lia. Qed.

(* a request that starts at the end of x is answered with what follows x, and nothing follows a LAST extent *)
Lemma drop_before_end A : forall lo x R, fexts_ok lo (A ++ x :: R) ->
  drop_before (fext_end x) (A ++ x :: R) = R /\ (fe_last x = true -> R = []).
Proof.
  induction A as [|a A IH]; intros lo x R H; cbn [app fexts_ok drop_before] in *; destruct H as (H1 & H2 & H3 & H4).
  - rewrite N.leb_refl. split; [|exact H3]. destruct R as [|y R]; [reflexivity|].
    cbn [fexts_ok drop_before] in *.
    destruct (N.leb_spec (fext_end y) (fext_end x)); [unfold fext_end in *; lia|reflexivity].
  - pose proof (fexts_ok_bounds _ _ _ H4 (in_elt x A R)).
    destruct (N.leb_spec (fext_end a) (fext_end x)); [now apply (IH (fext_end a))|unfold fext_end in *; lia].
Qed.

(* the same for the last extent of a page pg *)
Lemma drop_before_last lo A pg R d : pg <> [] -> fexts_ok lo (A ++ pg ++ R) ->
  drop_before (fext_end (last pg d)) (A ++ pg ++ R) = R /\ (fe_last (last pg d) = true -> R = []).
Proof.
  intros Hne. set (lst := last pg d). rewrite (app_removelast_last d Hne : pg = _ ++ [lst]).
  rewrite <- (app_assoc _ [lst] R), (app_assoc A). apply drop_before_end.
Qed.

(* the loop invariant: L = done ++ rest, fm_start has dropped exactly `done` *)
Lemma map_extents_go_complete L lo (HL : fexts_ok lo L) :
  forall fuel done rest start acc,
    L = done ++ rest ->
    drop_before start L = rest ->
    (length rest < fuel)%nat ->
    map_extents_go fuel (kernel_fiemap L) start acc = MxSome (acc ++ map to_ext rest).
Proof.
  induction fuel as [|f IH]; intros done rest start acc HLeq Hdrop Hfuel; [lia|].
  cbn [map_extents_go]. unfold kernel_fiemap at 1. rewrite Hdrop.
  pose proof (firstn_skipn FIEMAP_PAGE_SIZE rest) as Hrest.
  destruct (firstn FIEMAP_PAGE_SIZE rest) as [|x pg] eqn:Epg.
  - destruct rest; [|discriminate Epg]. cbn [map]. now rewrite app_nil_r.
  - assert (length (skipn FIEMAP_PAGE_SIZE rest) < f)%nat as Hlen.
    { rewrite skipn_length. destruct rest; [discriminate Epg|]. unfold FIEMAP_PAGE_SIZE. cbn [length] in *. lia. }
    (* all that is needed of the remainder: rest = (x :: pg) ++ rest', and rest' is short enough *)
    clear Epg. revert Hrest Hlen. generalize (skipn FIEMAP_PAGE_SIZE rest) as rest'. intros rest' <- Hlen.
    rewrite HLeq in HL. apply (drop_before_last _ _ _ _ x) in HL as [Hd Hnil]; [|discriminate]. cbv zeta.
    destruct (fe_last (last (x :: pg) x)).
    + now rewrite (Hnil eq_refl), app_nil_r.
    + rewrite (IH (done ++ x :: pg) rest');
        [now rewrite map_app, app_assoc|now rewrite HLeq, app_assoc|now rewrite HLeq|exact Hlen].
Qed.

Lemma drop_before_zero L lo : fexts_ok lo L -> drop_before 0 L = L.
Proof.
  destruct L as [|e r]; [reflexivity|]. cbn [fexts_ok drop_before]. intros (H1&H2&_).
  unfold fext_end. destruct (N.leb_spec (fe_logical e + fe_length e) 0); [lia|reflexivity].
Qed.

Theorem map_extents_complete L fuel :
  fexts_ok 0 L -> (length L < fuel)%nat ->
  map_extents fuel (kernel_fiemap L) = MxSome (map to_ext L).
Proof.
  intros HL Hf. apply (map_extents_go_complete L 0 HL fuel [] L 0 []); [reflexivity| |exact Hf].
  exact (drop_before_zero L 0 HL).
Qed.

Lemma to_ext_sorted L : forall lo, fexts_ok lo L -> sorted_from lo (map to_ext L).
Proof.
  induction L as [|e r IH]; intros lo H; cbn [map sorted_from]; [exact I|].
  cbn [fexts_ok] in H. destruct H as (H1&H2&H3&H4). cbn [to_ext e_start e_end].
  repeat split; [lia|lia|]. now apply IH.
Qed.

Definition fext_covers (e : fext) (i : N) : Prop := fe_logical e <= i /\ i < fext_end e.
Definition fexts_cover (L : list fext) (i : N) : Prop := exists e, In e L /\ fext_covers e i.

Lemma to_ext_covers L i : covered (map to_ext L) i <-> fexts_cover L i.
Proof.
  unfold covered, fexts_cover. rewrite <- !Exists_exists. apply Exists_map.
Qed.

Lemma map_extents_unsupported fuel f : f 0 = FmUnsupported -> (0 < fuel)%nat ->
  map_extents fuel f = MxNone.
Proof. intros H Hf. destruct fuel; [lia|]. unfold map_extents; cbn. now rewrite H. Qed.

Lemma in_data_nil i : in_data [] i <-> False.
Proof. unfold in_data. rewrite ex_in_pair. apply Exists_nil. Qed.

Lemma in_data_cons s e L i : in_data ((s, e) :: L) i <-> s <= i < e \/ in_data L i.
Proof. unfold in_data. rewrite !ex_in_pair. apply Exists_cons. Qed.

Lemma k_seek_data_eof L len p : len <= p -> k_seek_data L len p = SkEOF.
Proof. intros H. destruct L as [|[? ?] ?]; cbn [k_seek_data]; destruct (N.leb_spec len p); (reflexivity || lia). Qed.

Lemma k_seek_hole_eof L len p : len <= p -> k_seek_hole L len p = SkEOF.
Proof. intros H. destruct L as [|[? ?] ?]; cbn [k_seek_hole]; destruct (N.leb_spec len p); (reflexivity || lia). Qed.

Definition before (p : N) (D : layout) : Prop := Forall (fun se => fst se < snd se <= p) D.

Lemma before_le p q D : p <= q -> before p D -> before q D.
Proof. intros H. apply Forall_impl. lia. Qed.

Lemma before_snoc p D s e : before p D -> p <= s < e -> before e (D ++ [(s, e)]).
Proof.
  intros HD H. apply Forall_app. split; [apply (before_le p); [lia|exact HD]|repeat constructor; cbn; lia].
Qed.

Lemma k_seek_data_skip D : forall R len p, before p D ->
  k_seek_data (D ++ R) len p = k_seek_data R len p.
Proof.
  induction D as [|[s e] D IH]; intros R len p H; [reflexivity|]. apply Forall_cons_iff in H as [H1 H2]. cbn in H1.
  cbn [app k_seek_data]. destruct (N.leb_spec len p); [now rewrite k_seek_data_eof|].
  destruct (N.ltb_spec p e); [lia|]. now apply IH.
Qed.

Lemma k_seek_hole_skip D : forall R len p, before p D ->
  k_seek_hole (D ++ R) len p = k_seek_hole R len p.
Proof.
  induction D as [|[s e] D IH]; intros R len p H; [reflexivity|]. apply Forall_cons_iff in H as [H1 H2]. cbn in H1.
  cbn [app k_seek_hole]. destruct (N.leb_spec len p); [now rewrite k_seek_hole_eof|].
  destruct (N.ltb_spec p s); [lia|]. destruct (N.ltb_spec p e); [lia|]. now apply IH.
Qed.

(* what the kernel answers to next_sparse_segments at a position between data intervals: the next interval, or
   (len, len) when there is none *)
Lemma next_segment_layout len D R pos : before pos D -> layout_ok pos len R -> pos < len ->
  next_segment (k_seek_data (D ++ R) len) (k_seek_hole (D ++ R) len) len pos =
  inl (match R with [] => (len, len) | se :: _ => se end).
Proof.
  intros HD HR Hp. unfold next_segment. rewrite k_seek_data_skip by assumption.
  destruct R as [|[s e] r]; cbn [k_seek_data]; (destruct (N.leb_spec len pos); [lia|]).
  - now rewrite k_seek_hole_eof.
  - cbn [layout_ok] in HR. destruct (N.ltb_spec pos e); [|lia].
    replace (N.max pos s) with s by lia.
    rewrite k_seek_hole_skip by (apply (before_le pos); [lia|exact HD]).
    cbn [k_seek_hole]. destruct (N.leb_spec len s); [lia|].
    destruct (N.ltb_spec s s); [lia|]. destruct (N.ltb_spec s e); [reflexivity|lia].
Qed.

(* what the walk reports from pos on over the data intervals R still ahead: each of them, then the empty segment
   (len, len) unless the last one ends at len *)
Fixpoint expect_segs (len pos : N) (R : layout) : list (N * N) :=
  if len <=? pos then [] else
  match R with
  | [] => [(len, len)]
  | (s, e) :: r => (s, e) :: expect_segs len e r
  end.

Lemma segments_go_done fuel sd sh len pos : len <= pos -> segments_go fuel sd sh len pos = SegOk [].
Proof. intros H. destruct fuel; cbn [segments_go]; destruct (N.leb_spec len pos); (reflexivity || lia). Qed.

Lemma segments_go_spec len : forall R D pos fuel, before pos D -> layout_ok pos len R ->
  (length R + 1 < fuel)%nat ->
  segments_go fuel (k_seek_data (D ++ R) len) (k_seek_hole (D ++ R) len) len pos
  = SegOk (expect_segs len pos R).
Proof.
  induction R as [|[s e] r IH]; intros D pos [|f] HD HR Hf; try (cbn in Hf; lia);
    cbn [segments_go expect_segs]; (destruct (N.leb_spec len pos); [reflexivity|]);
    rewrite next_segment_layout by assumption.
  - now rewrite segments_go_done.
  - cbn [layout_ok] in HR. rewrite (app_assoc D [(s, e)] r : D ++ (s, e) :: r = _).
    rewrite IH; [reflexivity|apply (before_snoc pos); [assumption|lia]|apply HR|cbn [length] in Hf; lia].
Qed.

Theorem segments_spec L len fuel :
  layout_ok 0 len L -> (length L + 1 < fuel)%nat ->
  segments fuel (k_seek_data L len) (k_seek_hole L len) len = SegOk (expect_segs len 0 L).
Proof.
  intros HL Hf. unfold segments.
  apply (segments_go_spec len L [] 0 fuel); [constructor|assumption|assumption].
Qed.

Definition seg_covers (segs : list (N * N)) (i : N) : Prop :=
  exists d h, In (d, h) segs /\ d <= i /\ i < h.

(* seg_covers is in_data read on a list of segments *)
Lemma expect_segs_cover len : forall R pos i,
  layout_ok pos len R ->
  (seg_covers (expect_segs len pos R) i <-> in_data R i).
Proof.
  change seg_covers with in_data.
  induction R as [|[s e] r IH]; intros pos i HR; cbn [expect_segs]; destruct (N.leb_spec len pos).
  - reflexivity.
  - rewrite in_data_cons, in_data_nil. lia.
  - (* a non-empty layout at or beyond the end of the file: HR is contradictory *) cbn [layout_ok] in HR. lia.
  - cbn [layout_ok] in HR. rewrite !in_data_cons, (IH e i) by apply HR. reflexivity.
Qed.

Fixpoint segs_sorted (lo : N) (l : list (N * N)) : Prop :=
  match l with
  | [] => True
  | (d, h) :: r => lo <= d /\ d <= h /\ segs_sorted h r
  end.

Lemma expect_segs_sorted len : forall R pos,
  layout_ok pos len R -> segs_sorted pos (expect_segs len pos R).
Proof.
  induction R as [|[s e] r IH]; intros pos HR; cbn [expect_segs].
  - destruct (N.leb_spec len pos); cbn; [exact I|lia].
  - cbn [layout_ok] in HR. destruct HR as (H1&H2&H3&H4&H5).
    destruct (N.leb_spec len pos); [exact I|]. cbn [segs_sorted].
    repeat split; [lia|lia|]. now apply IH.
Qed.

Lemma expect_segs_within len : forall R pos d h,
  layout_ok pos len R -> In (d, h) (expect_segs len pos R) -> h <= len.
Proof.
  induction R as [|[s e] r IH]; intros pos d h HR Hin; cbn [expect_segs] in Hin.
  - destruct (len <=? pos); [destruct Hin|]. destruct Hin as [Hin|[]]. injection Hin as <- <-. lia.
  - cbn [layout_ok] in HR. destruct HR as (H1&H2&H3&H4&H5).
    destruct (len <=? pos); [destruct Hin|].
    destruct Hin as [Hin|Hin]; [injection Hin as <- <-; lia|exact (IH e d h H5 Hin)].
Qed.
