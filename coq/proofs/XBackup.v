(* Translator tie (see ExtractedOk.v): next_backup_num, the backup suffix pattern, the decision table of needs_backup. *)
From XcpModel Require Import Base Backup Extracted.
From Coq Require Import String.

(* the next number is one more than the largest existing one (than 0 when there is none) *)
Theorem x_next_backup_ok : forall base entries,
  next_backup_num base entries =
  (let n := x_next_backup_from_max (fold_right N.max x_backup_max_default (backup_nums base entries)) in
   if n <? U64 then Some n else None).
Proof. reflexivity. Qed.
(* ... and the successor is CHECKED in the source (`checked_add`, an error when it does not fit): the `None` of the model is
   a failed step in every build — an unchecked `+ 1` panics in a debug build but wraps to 0 in a release build, where the
   rename then replaces an existing `name.~0~` *)
Theorem x_next_backup_checked_ok : x_next_backup_checked = true.
Proof. reflexivity. Qed.

Theorem x_backup_pattern_ok : x_backup_pattern = "^\~(\d+)\~$"%string.
Proof. reflexivity. Qed.

Theorem x_needs_backup_ok : forall mode ex base entries, mode < 3 ->
  needs_backup mode ex base entries = x_needs_backup mode ex (has_backup base entries).
Proof.
  intros mode ex base entries Hm. assert (mode = 0 \/ mode = 1 \/ mode = 2) as H by lia.
  destruct H as [-> | [-> | ->]]; destruct ex; reflexivity.
Qed.
