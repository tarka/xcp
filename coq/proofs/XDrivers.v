(* Translator tie (see ExtractedOk.v): the joins at the end of Driver::copy of both drivers, the failure routes of both worker loops,
   the update loop of main(), the arms and the panic sites of the parblock block job.
   How each driver's copy() turns the results of its threads into its own: a thread result is `option N` (None = Ok,
   Some e = Err or a panic).  copy() returns Ok EXACTLY when the walker and every worker (parfile) / the walker and the
   dispatcher (parblock) returned Ok — no thread's error is ever dropped, whichever thread it is and in whatever order
   they finished.  This is the "driver thread" step of ConcFault's exit-status theorems, and the only report there is
   for a failed special file in parfile (that path sends no update). *)
From XcpModel Require Import Base Extracted.
From XcpProofs Require Import BaseProofs.
From Coq Require Import String.

(* joining in order and keeping the first error: the result is Ok exactly when the start and every joined result are *)
Lemma first_error_none (js : list (option N)) : forall a,
  fold_left (fun acc h => match acc with Some e => Some e | None => h end) js a = None <->
  a = None /\ Forall (fun r => r = None) js.
Proof.
  induction js as [|j js IH]; intros a; cbn [fold_left].
  - split; [now split|now intros [H _]].
  - apply (iff_trans (IH _)). destruct a as [e|].
    + split; intros [H _]; discriminate H.
    + split; [intros [H1 H2]; split; [reflexivity|now constructor]|].
      intros [_ H]. exact (conj (Forall_inv H) (Forall_inv_tail H)).
Qed.

Theorem x_parfile_copy_ok_iff : forall walk workers,
  x_parfile_copy_result walk workers = None <-> walk = None /\ Forall (fun r => r = None) workers.
Proof.
  intros [e|] workers; unfold x_parfile_copy_result; [split; [discriminate|now intros [H _]]|].
  rewrite <- (first_error_none workers None). now destruct (fold_left _ workers None).
Qed.

(* in particular: whichever worker failed — first, last or in between — the call fails *)
Corollary x_parfile_copy_any_worker_error : forall walk ws1 e ws2,
  x_parfile_copy_result walk (ws1 ++ Some e :: ws2) <> None.
Proof.
  intros walk ws1 e ws2 H. apply x_parfile_copy_ok_iff in H. destruct H as [_ H].
  apply Forall_elt in H. discriminate.
Qed.

Theorem x_parblock_copy_ok_iff : forall walk disp,
  x_parblock_copy_result walk disp = None <-> walk = None /\ disp = None.
Proof. intros [e|] [d|]; unfold x_parblock_copy_result; intuition discriminate. Qed.

(* per operation kind (0 Copy, 1 Link, 2 Special): 1 = an Error update is sent, 2 = the worker returns the error.
   Copy and Link do both; a special file only returns its error (its sole report is the worker's result). *)
Theorem x_error_routes_ok :
  x_parfile_error_routes = [(0, [1; 2]); (1, [1; 2]); (2, [2])] /\
  x_parblock_error_routes = [(0, [1; 2]); (1, [1; 2]); (2, [2])].
Proof. split; reflexivity. Qed.

(* every kind of operation, in both worker loops, returns its failure from the worker (route 2), and nothing else
   happens on a failure path (no 99: no skip, no retry, no swallowed error) *)
Theorem x_every_failure_is_returned :
  forall routes, In routes [x_parfile_error_routes; x_parblock_error_routes] ->
  map fst routes = [0; 1; 2] /\ forall k r, In (k, r) routes -> In 2 r /\ ~ In 99 r.
Proof.
  intros routes Hin.
  (* the two tables are the same list *)
  assert (routes = x_parfile_error_routes) as -> by (destruct Hin as [<-|[<-|[]]]; reflexivity).
  split; [reflexivity|]. intros k r Hr. apply (in_map snd) in Hr. cbn in Hr.
  destruct Hr as [<-|[<-|[<-|[]]]]; cbn; (split; [auto|intuition discriminate]).
Qed.

(* main(): the exit status from the update stream and the driver result *)
Definition has_error (stats : list x_update) : bool :=
  existsb (fun u => match u with XuError _ => true | _ => false end) stats.

Theorem x_main_collect_ok_iff : forall stats handle,
  x_main_collect stats handle = None <-> has_error stats = false /\ handle = None.
Proof.
  induction stats as [|u stats IH]; intros handle; cbn [x_main_collect has_error existsb].
  - destruct handle; intuition discriminate.
  - destruct u as [v|v|e]; cbn [orb]; [apply IH..|].
    split; [discriminate|intros [H _]; discriminate].
Qed.

(* end to end, parfile: if ANY worker returned an error the process exit status is non-zero, whatever the updates *)
Corollary x_parfile_worker_error_reaches_exit : forall stats walk ws1 e ws2,
  x_main_collect stats (x_parfile_copy_result walk (ws1 ++ Some e :: ws2)) <> None.
Proof.
  intros stats walk ws1 e ws2 H. apply x_main_collect_ok_iff in H. destruct H as [_ H].
  now apply x_parfile_copy_any_worker_error in H.
Qed.

(* end to end, both drivers: an Error update anywhere in the stream makes the exit status non-zero, whatever the driver
   thread returns (this is the only report of a failed BLOCK JOB of parblock, whose pool threads return nothing) *)
Corollary x_error_update_reaches_exit : forall s1 e s2 handle,
  x_main_collect (s1 ++ XuError e :: s2) handle <> None.
Proof.
  intros s1 e s2 handle H. apply x_main_collect_ok_iff in H. destruct H as [H _].
  unfold has_error in H. rewrite existsb_app in H. cbn in H. now rewrite Bool.orb_true_r in H.
Qed.

(* a failing call (`Err(e)`) and a premature end of the source (`Ok(0)` before the end of the file) each send an Error
   update — the job's pool thread returns nothing, so that update is its only report; with x_error_update_reaches_exit
   it makes the exit status non-zero.  A zero-byte answer at or after the end of the source ends the job normally;
   progress goes on. *)
Theorem x_block_job_arms_ok :
  x_block_job_arms = [("Ok(0)ifoff+done>=harc.metadata.len()", 0); ("Ok(0)", 1); ("Ok(copied)", 2); ("Err(e)", 1)]%string.
Proof. reflexivity. Qed.

(* every place that can PANIC in code run inside a job of the parblock pool (the job closure, the kernel-copy wrappers, the
   user-space fall-back and its positional read/write, ChannelUpdater::send, the finalisation run by the drop of the last
   handle): a panic there is reported by nobody (the pool replaces the thread, join() returns, the dispatcher sees Ok), so
   the inventory is closed — exactly these three:
   * the job's own panic!, which stands under `if let Err(e) = stat_result`: by x_block_job_arms_ok stat_result is an Err
     only when SENDING a status update failed, i.e. when the client has dropped the receiver (xcp's main never does before
     the driver returned);
   * `buf[..next]` and `buf[..rlen]` of copy_range_uspace: in range by XLoops.x_range_buffer_holds_every_read and
     XLoops.x_range_buffer_holds_every_write (the latter under read(2)'s contract).
   A new unwrap / expect / index / panic in any of those functions re-opens this obligation. *)
Theorem x_pool_job_panic_sites_ok :
  x_pool_job_panic_sites = [("parblock::queue_file_range(job)", "panic! under letErr(e)=stat_result");
                            ("common::copy_range_uspace", "buf[..next]"); ("common::copy_range_uspace", "buf[..rlen]")]%string.
Proof. reflexivity. Qed.

(* ConcFault's XMain step exits with `false` as soon as an Error update is in the channel and otherwise, once everything
   has drained, with the driver thread's result; its XDrv step returns `false` iff the walker or a worker / the
   dispatcher ended in error.  The two expressions are written out below as they stand in those arms (the statements do not
   mention xstep itself); the translated functions compute them: *)
Theorem model_main_step_is_translated_main : forall (errs : nat) (r : bool) stats handle,
  has_error stats = Nat.ltb 0 errs -> (handle = None <-> r = true) ->
  (x_main_collect stats handle = None <-> (if Nat.ltb 0 errs then false else r) = true).
Proof.
  intros errs r stats handle He Hh. rewrite x_main_collect_ok_iff, He.
  destruct (Nat.ltb 0 errs); intuition discriminate.
Qed.

Theorem model_driver_step_is_translated_copy : forall (walk_ok : bool) (workers_ok : list bool) walk workers,
  (walk = None <-> walk_ok = true) -> Forall2 (fun r b => r = None <-> b = true) workers workers_ok ->
  (x_parfile_copy_result walk workers = None <-> walk_ok && forallb (fun b => b) workers_ok = true).
Proof.
  intros walk_ok workers_ok walk workers Hw Hf. apply Forall2_reflects in Hf.
  rewrite x_parfile_copy_ok_iff, Bool.andb_true_iff. tauto.
Qed.
