(* C07 (and the protocol half of C04) for the shutdown
   protocols with failures: in every state some thread can move until the
   process has exited, every step strictly decreases a measure (so every
   execution is finite and bounded by the size of the workload), and exit
   status 0 is only reached when no step failed and all the work is done.
   Only the last needs an invariant. *)
From XcpModel Require Import Base ConcFault.
From XcpProofs Require Import BaseProofs.
From Coq Require Import PeanoNat.
Local Open Scope nat_scope.

(* The measures are sums with one summand per component of the state, and a step changes one or two neighbouring
   ones.  What the two sides share is stripped before lia sees them: its cost grows fast with the length of a sum.
   add_lt_r and add_lt_l are one direction each of the library's equivalences, with which `apply` is much dearer *)
Lemma add_lt_r n m p : n < m -> n + p < m + p.
Proof. apply Nat.add_lt_mono_r. Qed.

Lemma add_lt_l n m p : n < m -> p + n < p + m.
Proof. apply Nat.add_lt_mono_l. Qed.

Lemma add_lt_2 p a b a' b' : a' + b' < a + b -> p + a' + b' < p + a + b.
Proof. lia. Qed.

Ltac strip_sums := repeat apply add_lt_r; try apply add_lt_l; try apply add_lt_2.

(* the fields of an explicit state; xstep itself unfolds once that state is known to be running (x_main = MLoop) *)
Ltac xproj := cbn [xstep x_todo x_w x_fq x_disp x_pq x_run x_drv x_errs x_failed x_main] in *.

Theorem xstep_measure W Q s l s' : xstep W Q s l = Some s' -> xmeasure s' < xmeasure s.
Proof.
  destruct s as [todo w fq disp pq run drv errs failed main]. destruct main; [|discriminate].
  destruct l; xproj; intros H; split_step H;
    try apply Nat.lt_0_succ; (* XMain: the measure of a state that has exited is 0 *)
    cbn -[Nat.add Nat.mul]; strip_sums; rewrite ?fold_add_app; cbn [fold_right]; lia.
Qed.

Fixpoint xrun (W Q : nat) (s : xst) (ls : list xlabel) : option xst :=
  match ls with
  | [] => Some s
  | l :: r => match xstep W Q s l with Some s' => xrun W Q s' r | None => None end
  end.

Theorem xbounded W Q : forall ls s s', xrun W Q s ls = Some s' -> length ls + xmeasure s' <= xmeasure s.
Proof.
  induction ls as [|l r IH]; intros s s' H; cbn [xrun] in H.
  - injection H as <-. cbn. lia.
  - destruct (xstep W Q s l) as [s1|] eqn:E; [|discriminate].
    pose proof (xstep_measure W Q s l s1 E). specialize (IH s1 s' H). cbn [length]. lia.
Qed.

(* of every state, reachable or not.  The thread that moves is the first of: the walker, a running job, a queued
   job, the dispatcher, the driver, main *)
Theorem x_no_deadlock W Q s : 1 <= W -> 1 <= Q -> x_main s = MLoop -> exists l s', xstep W Q s l = Some s'.
Proof.
  intros HW HQ Hm. destruct s as [todo w fq disp pq run drv errs failed main]. xproj. subst main.
  destruct w; [exists XWalk; xproj; destruct todo; [|destruct (disp_alive disp)]; eexists; reflexivity| |].
  all: destruct run as [|r]; [|exists (XJobDone false); eexists; reflexivity].
  all: destruct pq as [|p]; [|exists XTake; xproj; destruct (Nat.ltb_spec 0 W); [eexists; reflexivity|lia]].
  all: destruct disp as [|[|n]| | |];
    [exists XDisp; xproj; destruct fq as [|[js|] r]; eexists; reflexivity
    |exists XDisp; eexists; reflexivity
    |exists XDisp; xproj; destruct (Nat.ltb_spec 0 Q); [eexists; reflexivity|lia]
    |exists XDisp; eexists; reflexivity
    | | ].
  all: destruct drv as [| |ok]; [exists XDrv; eexists; reflexivity|exists XDrv; eexists; reflexivity|].
  all: exists XMain; xproj; destruct (0 <? errs); eexists; reflexivity.
Qed.

(* each handshake of the shutdown implies the ones before it *)
Record XInv (s : xst) : Prop := mkXInv {
  xi_w : x_w s <> WRun -> x_todo s = [];
  xi_join : x_disp s = XJoin \/ x_disp s = XDone -> x_fq s = [] /\ x_w s <> WRun;
  xi_failed : x_failed s = true -> x_w s = WErr \/ x_disp s = XFail \/ 0 < x_errs s;
  xi_rest : x_drv s = DrvRest -> x_w s = WOk;
  xi_ret : x_drv s = DrvRet true -> x_w s = WOk /\ x_disp s = XDone;
  xi_exit : x_main s = MExit true -> x_drv s = DrvRet true /\ x_errs s = 0 /\ x_pq s = 0 /\ x_run s = 0
}.

Lemma xinv_init ops : XInv (xinit ops).
Proof. constructor; cbn; intuition discriminate. Qed.

(* a clause of an invariant after a step: it is the clause I that held before; or its guard is now false; or it
   follows from I alone by propositional reasoning (everything else is cleared first: with the whole context the
   search is many times dearer).  What is left is written out where carry is used: it needs the guards of the
   step, another clause, or arithmetic *)
Ltac carry I := first [exact I | discriminate | try solve [generalize I; clear; firstorder discriminate]].

Lemma xinv_step {W Q s l s'} : XInv s -> xstep W Q s l = Some s' -> XInv s'.
Proof.
  intros [Iw Ijoin Ifailed Irest Iret Iexit].
  destruct s as [todo w fq disp pq run drv errs failed main]. xproj. destruct main; [|discriminate].
  destruct l; xproj; intros H; split_step H;
    (constructor; cbn; [carry Iw | carry Ijoin | carry Ifailed | carry Irest | carry Iret | carry Iexit]).
  - (* XJobDone *) destruct fail; [intros _; right; right; cbn [b2n]; lia|].
    rewrite Bool.orb_false_r, Nat.add_0_r. exact Ifailed.
  - (* XDrv, Ok *) intros _. split; [apply Irest|]; reflexivity.
  - (* XMain *) intros [= ->]. repeat split. lia.
  - intros [= ->]. repeat split. lia.
Qed.

Theorem xinv_reachable W Q ops s : xreachable W Q ops s -> XInv s.
Proof. induction 1 as [|s l s' _ IH Hs]; [apply xinv_init|exact (xinv_step IH Hs)]. Qed.

Theorem xinv_exit_ok {s} : XInv s -> x_main s = MExit true ->
  x_failed s = false /\ x_todo s = [] /\ x_fq s = [] /\ x_pq s = 0 /\ x_run s = 0 /\ x_disp s = XDone.
Proof.
  intros [Iw Ijoin Ifailed _ Iret Iexit] Hm.
  destruct (Iexit Hm) as (Hd & He & Hp & Hn). destruct (Iret Hd) as [Hw Hx]. destruct (Ijoin (or_intror Hx)) as [Hq _].
  repeat split; try assumption.
  - destruct (x_failed s); [|reflexivity]. destruct (Ifailed eq_refl) as [F|[F|F]]; [congruence|congruence|lia].
  - apply Iw. congruence.
Qed.

Ltac yproj := cbn [ystep y_todo y_w y_fq y_live y_busy y_werr y_drv y_errs y_failed y_main] in *.

Lemma busy_split {l k n} : nth_error l k = Some n ->
  exists a b, l = a ++ n :: b /\ ydrop k l = a ++ b /\ forall v, yset k v l = a ++ v :: b.
Proof. intros H. exists (firstn k l), (skipn (S k) l). split; [apply nth_error_mid, H|split; reflexivity]. Qed.

Theorem ystep_measure s l s' : ystep s l = Some s' -> ymeasure s' < ymeasure s.
Proof.
  destruct s as [todo w fq live busy werr drv errs failed main]. destruct main; [|discriminate].
  destruct l as [| | | |k fail| | |]; yproj; intros H; split_step H;
    try match goal with E : nth_error busy k = Some _ |- _ =>
          destruct (busy_split E) as (a & b & -> & Hd & Hs); rewrite ?Hd, ?Hs end;
    try apply Nat.lt_0_succ; cbn -[Nat.add Nat.mul]; strip_sums; rewrite ?fold_add_app; cbn [fold_right]; lia.
Qed.

Fixpoint yrun (s : yst) (ls : list ylabel) : option yst :=
  match ls with
  | [] => Some s
  | l :: r => match ystep s l with Some s' => yrun s' r | None => None end
  end.

Theorem ybounded : forall ls s s', yrun s ls = Some s' -> length ls + ymeasure s' <= ymeasure s.
Proof.
  induction ls as [|l r IH]; intros s s' H; cbn [yrun] in H.
  - injection H as <-. cbn. lia.
  - destruct (ystep s l) as [s1|] eqn:E; [|discriminate].
    pose proof (ystep_measure s l s1 E). specialize (IH s1 s' H). cbn [length]. lia.
Qed.

(* the first of: the walker, a busy worker, an idle worker (it takes an operation or ends), the driver, main *)
Theorem y_no_deadlock s : y_main s = MLoop -> exists l s', ystep s l = Some s'.
Proof.
  intros Hm. destruct s as [todo w fq live busy werr drv errs failed main]. yproj. subst main.
  destruct w; [exists YWalk; yproj; destruct todo; [|destruct (0 <? live)]; eexists; reflexivity| |].
  all: destruct busy as [|n busy]; [|exists (YWork 0 false); destruct n as [|[|m]]; eexists; reflexivity].
  all: destruct live as [|lv]; [|destruct fq as [|o r]; [exists YExit|exists YTake; destruct o]; eexists; reflexivity].
  all: destruct drv as [| |ok]; [exists YDrv; eexists; reflexivity|exists YDrv; eexists; reflexivity|].
  all: exists YMain; yproj; destruct (0 <? errs); eexists; reflexivity.
Qed.

Record YInv (s : yst) : Prop := mkYInv {
  yi_w : y_w s <> WRun -> y_todo s = [];
  yi_busy : length (y_busy s) <= y_live s;
  yi_gone : y_werr s = false -> 0 < y_live s \/ y_fq s = [];
  yi_failed : y_failed s = true -> y_w s = WErr \/ y_werr s = true \/ 0 < y_errs s;
  yi_rest : y_drv s = DrvRest -> y_w s = WOk;
  yi_ret : y_drv s = DrvRet true -> y_w s = WOk /\ y_werr s = false /\ y_live s = 0;
  yi_exit : y_main s = MExit true -> y_drv s = DrvRet true /\ y_errs s = 0
}.

Lemma yinv_init W ops : YInv (yinit W ops).
Proof. constructor; cbn; intuition (discriminate || lia). Qed.

Lemma yinv_step {s l s'} : YInv s -> ystep s l = Some s' -> YInv s'.
Proof.
  intros [Iw Ibusy Igone Ifailed Irest Iret Iexit].
  destruct s as [todo w fq live busy werr drv errs failed main]. yproj. destruct main; [|discriminate].
  destruct l as [| | | |k fail| | |]; yproj; intros H; split_step H;
    try match goal with E : nth_error busy k = Some _ |- _ =>
          destruct (busy_split E) as (a & b & -> & Hd & Hs); rewrite ?Hd, ?Hs end;
    (constructor; cbn;
     [carry Iw | first [exact Ibusy | revert Ibusy; rewrite ?app_length; cbn [length]; lia]
     |carry Igone | carry Ifailed | carry Irest | carry Iret | carry Iexit]).
  - (* YWalk, the send succeeds *) intros _. left. assumption.
  - (* YTakeFail, YWork failing, YExit: a worker was still alive, so the driver has not joined them all *)
    intros G. destruct (Iret G) as (_ & _ & ->). lia.
  - intros G. destruct (Iret G) as (_ & _ & ->). rewrite app_length in Ibusy. cbn [length] in Ibusy. lia.
  - intros G. destruct (Iret G) as (_ & _ & ->). lia.
  - (* YDrv, all workers joined *) intros [= G]. destruct werr; [discriminate|]. repeat split. apply Irest. reflexivity.
  - (* YMain *) intros [= ->]. split; [reflexivity|lia].
  - intros [= ->]. split; [reflexivity|lia].
Qed.

Theorem yinv_reachable W ops s : yreachable W ops s -> YInv s.
Proof. induction 1 as [|s l s' _ IH Hs]; [apply yinv_init|exact (yinv_step IH Hs)]. Qed.

Theorem yinv_exit_ok {s} : YInv s -> y_main s = MExit true ->
  y_failed s = false /\ y_todo s = [] /\ y_busy s = [] /\ y_fq s = [].
Proof.
  intros [Iw Ibusy Igone Ifailed _ Iret Iexit] Hm.
  destruct (Iexit Hm) as [Hd He]. destruct (Iret Hd) as (Hw & Hf & Hl).
  repeat split.
  - destruct (y_failed s); [|reflexivity]. destruct (Ifailed eq_refl) as [F|[F|F]]; [congruence|congruence|lia].
  - apply Iw. congruence.
  - destruct (y_busy s); [reflexivity|]. cbn [length] in Ibusy. lia.
  - destruct (Igone Hf) as [?|?]; [lia|assumption].
Qed.
