(* C06: under EVERY schedule of the parblock protocol
   (any number W of workers, any pool queue bound Q) every operation has the
   same outcome: a copied file is opened once, then receives each of its
   blocks exactly once (in some order), then is finalised once, and nothing
   touches it afterwards; an inline operation happens exactly once; nothing
   else happens.  The same for the parfile protocol; hence the two drivers
   agree.  Both follow from one statement about histories (coupled_complete):
   the invariant of the driver at a state with no live handle, plus the
   conservation of the (handle, block) pairs. *)
From XcpModel Require Import Base ConcBlock ConcFile ConcOutcome Walker Meta Ops.
From XcpProofs Require Import BaseProofs ConcBlockProofs ConcFileProofs.
From Coq Require Import PeanoNat Permutation Sorted.
Local Open Scope nat_scope.

Lemma nodup_app_l {A} (a b : list A) : NoDup (a ++ b) -> NoDup a.
Proof.
  induction a as [|x a IH]; cbn [app]; intros H; [constructor|]. apply NoDup_cons_iff in H. destruct H as [Hx Ha].
  constructor; [|exact (IH Ha)]. intros Hin. apply Hx, in_or_app. now left.
Qed.

Lemma blocks_of_cons h e ev :
  blocks_of h (e :: ev) =
  match e with EWrite h' b => if h' =? h then b :: blocks_of h ev else blocks_of h ev | _ => blocks_of h ev end.
Proof.
  unfold blocks_of. rewrite written_cons. destruct e as [h'|h' b|h'|h']; try reflexivity.
  cbn. now destruct (h' =? h).
Qed.

Lemma blocks_of_none h ev : (forall e, In e ev -> ev_handle e <> h) -> blocks_of h ev = [].
Proof.
  induction ev as [|e ev IH]; intros H; [reflexivity|]. rewrite blocks_of_cons, IH by (intros x Hx; apply H; now right).
  destruct e as [|h' b| |]; trivial. destruct (Nat.eqb_spec h' h) as [->|]; [|reflexivity]. now destruct (H (EWrite h b)); [left|].
Qed.

Definition phase_writes (p : phase) : list nat := match p with POpen bs | PFinal bs => bs | _ => [] end.

Lemma phase_blocks h ev : phase_of h ev <> PBad -> blocks_of h ev = phase_writes (phase_of h ev).
Proof.
  induction ev as [|e ev IH]; [reflexivity|]. rewrite blocks_of_cons. cbn [phase_of].
  destruct (Nat.eqb_spec (ev_handle e) h) as [He|He].
  - intros Hb. assert (phase_of h ev <> PBad) as Hb' by (intros E; rewrite E in Hb; now destruct e).
    specialize (IH Hb'). destruct (phase_of h ev), e; cbn in *; subst; rewrite ?Nat.eqb_refl; congruence.
  - intros Hb. destruct e as [|h' b| |]; cbn in He; auto. destruct (Nat.eqb_spec h' h); [contradiction|auto].
Qed.

Lemma filter_pair n h (js : list nat) :
  filter (fun p : nat * nat => fst p =? h) (map (fun b => (n, b)) js) = if n =? h then map (fun b => (n, b)) js else [].
Proof. induction js as [|b js IH]; cbn [map filter fst]; [|rewrite IH]; now destruct (n =? h). Qed.

Lemma todo_pairs_below ops : forall n h, h < n -> filter (fun p : nat * nat => fst p =? h) (todo_pairs n ops) = [].
Proof.
  induction ops as [|[js|] ops IH]; intros n h Hlt; cbn [todo_pairs]; [reflexivity| |apply IH; lia].
  rewrite filter_app, filter_pair, IH by lia. now destruct (Nat.eqb_spec n h); [lia|].
Qed.

Lemma todo_pairs_nth ops : forall n k,
  map snd (filter (fun p : nat * nat => fst p =? n + k) (todo_pairs n ops)) =
  match nth_error ops k with Some (OCopy js) => js | _ => [] end.
Proof.
  induction ops as [|o ops IH]; intros n k; [now destruct k|].
  assert (map snd (filter (fun p : nat * nat => fst p =? n + k) (todo_pairs (S n) ops)) =
          match k with 0 => [] | S k' => match nth_error ops k' with Some (OCopy js) => js | _ => [] end end) as E.
  { destruct k as [|k']; [now rewrite todo_pairs_below by lia|]. rewrite <- Nat.add_succ_comm. apply IH. }
  destruct o as [js|]; cbn [todo_pairs]; [|now destruct k].
  rewrite filter_app, map_app, filter_pair, E. destruct k as [|k']; cbn [nth_error].
  - rewrite Nat.add_0_r, Nat.eqb_refl, map_map, map_id. apply app_nil_r.
  - now destruct (Nat.eqb_spec n (n + S k')); [lia|].
Qed.

Definition complete (ops : list bop) (ev : list bev) : Prop :=
  (forall h o, nth_error ops h = Some o -> outcome_ok o (phase_of h ev)) /\
  (forall h, nth_error ops h = None -> phase_of h ev = PNone).

Lemma complete_copy {ops ev h js} : complete ops ev -> nth_error ops h = Some (OCopy js) ->
  exists bs, phase_of h ev = PFinal bs /\ Permutation bs js.
Proof.
  intros [H _] Hn. specialize (H h _ Hn). destruct (phase_of h ev) as [| |bs| |]; try contradiction. now exists bs.
Qed.

Theorem coupled_complete {ops t ev} {live : nat -> Prop} :
  Coupled ops t live ev -> (forall h, ~ live h) -> length ops <= t ->
  Permutation (todo_pairs 0 ops) (written ev) -> complete ops ev.
Proof.
  intros Hp Hdead Ht Hw. split; intros h; specialize (Hp h).
  - intros o Hn. assert (h < length ops) by (apply nth_error_Some; congruence).
    assert (Permutation (match nth_error ops h with Some (OCopy js) => js | _ => [] end) (blocks_of h ev)) as Hb.
    { rewrite <- (todo_pairs_nth ops 0 h). apply Permutation_map, perm_filter, Hw. }
    rewrite phase_blocks, Hn in Hb by (intros E; now rewrite E in Hp).
    destruct (phase_of h ev); cbn in Hp; [lia|destruct (Hdead h); apply Hp| | |easy].
    + destruct Hp as (_ & _ & js & Hjs). rewrite Hn in Hjs. injection Hjs as ->. cbn. now symmetry.
    + destruct Hp as (_ & _ & Ho). rewrite Hn in Ho. now injection Ho as ->.
  - intros Hn. destruct (phase_of h ev); cbn in Hp; [reflexivity| | | |easy]; rewrite Hn in Hp.
    1,2: destruct Hp as (_ & _ & js & [=]). destruct Hp as (_ & _ & [=]).
Qed.

Theorem parblock_any_schedule W Q ops s : reachable W Q ops s -> final s = true ->
  (forall h o, nth_error ops h = Some o -> outcome_ok o (phase_of h (b_ev s))) /\
  (forall h, nth_error ops h = None -> phase_of h (b_ev s) = PNone).
Proof.
  intros Hr Hf. destruct (binv_reachable W Q ops s Hr) as [t HI]. apply (coupled_complete (v_coupled HI)).
  - intros h. rewrite (v_open HI), (final_refs s h Hf). lia.
  - pose proof (v_sent HI) as HS. destruct (final_spec s Hf) as (Ht & Hq & _). rewrite Ht, Hq in HS. exact (sent_final HS).
  - exact (final_writes_complete W Q ops s Hr Hf).
Qed.

Theorem parfile_any_schedule W ops s : freachable W ops s -> ffinal s = true ->
  (forall h o, nth_error ops h = Some o -> outcome_ok o (phase_of h (f_ev s))) /\
  (forall h, nth_error ops h = None -> phase_of h (f_ev s) = PNone).
Proof.
  intros Hr Hf. destruct (finv_reachable W ops s Hr) as [t HI]. destruct (ffinal_spec s Hf) as (Ht & Hq & Hrun).
  apply (coupled_complete (w_coupled HI)).
  - rewrite Hrun. intros h [].
  - pose proof (w_sent HI) as HS. rewrite Ht, Hq in HS. exact (sent_final HS).
  - pose proof (freachable_pairs W ops s Hr) as Hw. unfold f_pairs in Hw. rewrite Ht, Hq, Hrun in Hw. cbn in Hw.
    now rewrite app_nil_r in Hw.
Qed.

Definition same_outcome (p q : phase) : Prop :=
  match p, q with
  | PFinal a, PFinal b => Permutation a b
  | PInline, PInline => True
  | PNone, PNone => True
  | _, _ => False
  end.

Lemma complete_agree ops ev1 ev2 : complete ops ev1 -> complete ops ev2 ->
  forall h, same_outcome (phase_of h ev1) (phase_of h ev2).
Proof.
  intros [A1 B1] [A2 B2] h. destruct (nth_error ops h) as [o|] eqn:En; [|now rewrite (B1 h En), (B2 h En)].
  specialize (A1 h o En). specialize (A2 h o En).
  destruct o, (phase_of h ev1); try contradiction; destruct (phase_of h ev2); try contradiction; trivial. cbn in *. now rewrite A1, A2.
Qed.

Theorem drivers_agree W Q W' ops sb sf :
  reachable W Q ops sb -> final sb = true -> freachable W' ops sf -> ffinal sf = true ->
  forall h, same_outcome (phase_of h (b_ev sb)) (phase_of h (f_ev sf)).
Proof.
  intros Hb Hbf Hf Hff. apply (complete_agree ops); [now apply (parblock_any_schedule W Q)|now apply (parfile_any_schedule W')].
Qed.

(* sort_nat picks one list from every class of permutations (sort_nat_eq_iff): the executable outcome check
   compares two lists of blocks through it *)
Lemma insert_sorted_perm x l : Permutation (insert_sorted x l) (x :: l).
Proof.
  induction l as [|y l IH]; cbn [insert_sorted]; [reflexivity|]. destruct (x <=? y); [reflexivity|].
  now rewrite IH, perm_swap.
Qed.

Lemma sort_nat_perm l : Permutation (sort_nat l) l.
Proof. induction l as [|x l IH]; [constructor|]. cbn [sort_nat fold_right]. now rewrite insert_sorted_perm, IH. Qed.

Lemma insert_sorted_sorted x l : StronglySorted le l -> StronglySorted le (insert_sorted x l).
Proof.
  induction 1 as [|y l Hs IH Hf]; cbn [insert_sorted]; [repeat constructor|]. destruct (Nat.leb_spec x y).
  - repeat constructor; trivial. exact (Forall_impl _ (fun z => Nat.le_trans x y z H) Hf).
  - constructor; [exact IH|]. apply (Permutation_Forall (Permutation_sym (insert_sorted_perm x l))).
    constructor; [apply Nat.lt_le_incl, H|exact Hf].
Qed.

Lemma sort_nat_sorted l : StronglySorted le (sort_nat l).
Proof. induction l as [|x l IH]; [constructor|]. now apply insert_sorted_sorted. Qed.

Lemma sorted_perm_eq a : forall b, StronglySorted le a -> StronglySorted le b -> Permutation a b -> a = b.
Proof.
  induction a as [|x a IH]; intros [|y b] Ha Hb Hp; [reflexivity|now apply Permutation_nil_cons in Hp| |].
  - symmetry in Hp. now apply Permutation_nil_cons in Hp.
  - inversion Ha as [|? ? Sa Fa]; inversion Hb as [|? ? Sb Fb]; subst.
    (* each head is the least element of its list and occurs in the other list *)
    pose proof (Forall_inv (Permutation_Forall Hp (Forall_cons x (le_n x) Fa))).
    pose proof (Forall_inv (Permutation_Forall (Permutation_sym Hp) (Forall_cons y (le_n y) Fb))).
    assert (x = y) as -> by lia. f_equal. apply IH; trivial. exact (Permutation_cons_inv Hp).
Qed.

Lemma sort_nat_eq_iff a b : sort_nat a = sort_nat b <-> Permutation a b.
Proof.
  split; intros H.
  - now rewrite <- (sort_nat_perm a), H, sort_nat_perm.
  - apply sorted_perm_eq; try apply sort_nat_sorted. now rewrite !sort_nat_perm.
Qed.

Lemma list_eqb_eq a : forall b, list_eqb a b = true -> a = b.
Proof.
  induction a as [|x a IH]; intros [|y b]; cbn [list_eqb]; try discriminate; [reflexivity|].
  intros [->%Nat.eqb_eq H]%andb_true_iff. f_equal. exact (IH b H).
Qed.

Theorem outcome_okb_sound o p : outcome_okb o p = true -> outcome_ok o p.
Proof.
  destruct o as [js|], p as [|bs|bs| |]; cbn [outcome_okb outcome_ok]; try discriminate; [|trivial].
  intros H. apply sort_nat_eq_iff, list_eqb_eq, H.
Qed.

Lemma complete_norm ops ev1 ev2 : complete ops ev1 -> complete ops ev2 ->
  forall h, norm_phase (phase_of h ev1) = norm_phase (phase_of h ev2).
Proof.
  intros H1 H2 h. pose proof (complete_agree ops ev1 ev2 H1 H2 h) as H.
  destruct (phase_of h ev1), (phase_of h ev2); try contradiction; try reflexivity. cbn in *. f_equal. now apply sort_nat_eq_iff.
Qed.

Theorem parblock_two_schedules_same_outcome W1 Q1 W2 Q2 ops s1 s2 :
  reachable W1 Q1 ops s1 -> final s1 = true -> reachable W2 Q2 ops s2 -> final s2 = true ->
  forall h, norm_phase (phase_of h (b_ev s1)) = norm_phase (phase_of h (b_ev s2)).
Proof.
  intros H1 F1 H2 F2. apply (complete_norm ops); [now apply (parblock_any_schedule W1 Q1)|now apply (parblock_any_schedule W2 Q2)].
Qed.

Theorem drivers_same_outcome W Q W' ops sb sf :
  reachable W Q ops sb -> final sb = true -> freachable W' ops sf -> ffinal sf = true ->
  forall h, norm_phase (phase_of h (b_ev sb)) = norm_phase (phase_of h (f_ev sf)).
Proof.
  intros Hb Fb Hf Ff. apply (complete_norm ops); [now apply (parblock_any_schedule W Q)|now apply (parfile_any_schedule W')].
Qed.

Lemma events_of_cons h e ev :
  events_of h (e :: ev) = events_of h ev ++ (if Nat.eqb (ev_handle e) h then [e] else []).
Proof. unfold events_of. cbn [rev]. rewrite filter_app. cbn [filter]. destruct (Nat.eqb (ev_handle e) h); reflexivity. Qed.

Theorem phase_shape h ev :
  match phase_of h ev with
  | PNone => events_of h ev = []
  | POpen bs => events_of h ev = EOpen h :: map (EWrite h) (rev bs)
  | PFinal bs => events_of h ev = EOpen h :: map (EWrite h) (rev bs) ++ [EFinal h]
  | PInline => events_of h ev = [EInline h]
  | PBad => True
  end.
Proof.
  induction ev as [|e ev IH]; [reflexivity|]. rewrite events_of_cons. cbn [phase_of].
  destruct (Nat.eqb_spec (ev_handle e) h) as [He|He]; [|rewrite app_nil_r; exact IH].
  destruct (phase_of h ev) as [|bs|bs| |]; destruct e as [h'|h' b|h'|h']; cbn [phase_step ev_handle] in *; subst; try exact I.
  - rewrite IH. reflexivity.
  - rewrite IH. reflexivity.
  - rewrite IH. cbn [rev app]. rewrite map_app. cbn [map]. now rewrite app_comm_cons.
  - rewrite IH. now rewrite app_comm_cons.
Qed.

Corollary complete_copy_events {ops ev h js} : complete ops ev -> nth_error ops h = Some (OCopy js) ->
  exists bs, events_of h ev = EOpen h :: map (EWrite h) (rev bs) ++ [EFinal h].
Proof.
  intros Hc Hn. destruct (complete_copy Hc Hn) as (bs & E & _). exists bs.
  pose proof (phase_shape h ev) as Hs. now rewrite E in Hs.
Qed.

(* from protocol events to system calls: under EVERY schedule the calls issued on one copied file are
   Ops.copy_actions for SOME completion order of its blocks *)
Section Expand.
  Variable fc : fin_cfg.
  Variable src dst : rel.
  Variable e0 : copy_env.                 (* everything but the order of the writes *)
  Variable blk : nat -> N * N.            (* (offset, bytes) of block b: Blocks.range_jobs *)

  Definition open_actions : list sysact :=
    ([AOpenRO (KSrc src); AStat (KSrc src)] ++ (if ce_dst_exists e0 then [AStat (KDst dst)] else [])) ++
    match ce_backup e0 with Some n => [AReaddir (KDst dst); ARename (KDst dst) (KBak dst n)] | None => [] end ++
    [ACreateTrunc (KDst dst); AFtruncate (KDst dst) (ce_len e0)] ++
    (if ce_clone_issued e0 then [AClone (KDst dst)] else []).

  Definition final_actions : list sysact :=
    (if c_ownership fc then [AChown (KDst dst)] else []) ++
    (if c_no_perms fc then [] else repeat (ASetxattr (KDst dst)) (ce_nxattr e0) ++ [AChmod (KDst dst)]) ++
    (if c_no_timestamps fc then [] else [AUtimens (KDst dst)]) ++
    (if c_fsync fc then [AFsync (KDst dst)] else []).

  Definition ev_actions (x : bev) : list sysact :=
    match x with
    | EOpen _ => open_actions
    | EWrite _ b => [ARead (KSrc src) (fst (blk b)) (snd (blk b)); AWrite (KDst dst) (fst (blk b)) (snd (blk b))]
    | EFinal _ => final_actions
    | EInline _ => []
    end.

  Definition with_writes (ws : list (N * N)) : copy_env :=
    mkEnv (ce_dst_exists e0) (ce_same_file e0) (ce_backup e0) (ce_len e0) (ce_cloned e0) (ce_clone_issued e0) ws (ce_nxattr e0).

  Theorem history_is_copy_actions h ev bs :
    phase_of h ev = PFinal bs -> ce_dst_exists e0 && ce_same_file e0 = false -> ce_cloned e0 = false ->
    copy_actions fc src dst (with_writes (map blk (rev bs))) = (flat_map ev_actions (events_of h ev), true).
  Proof.
    intros Hph Hsame Hcl. pose proof (phase_shape h ev) as Hs. rewrite Hph in Hs. rewrite Hs.
    unfold copy_actions, with_writes. cbn [ce_dst_exists ce_same_file ce_backup ce_len ce_cloned ce_clone_issued ce_writes ce_nxattr].
    rewrite Hsame, Hcl. f_equal.
    cbn [flat_map ev_actions]. rewrite flat_map_app. cbn [flat_map ev_actions]. rewrite app_nil_r.
    rewrite !flat_map_map. cbn [ev_actions]. unfold open_actions, final_actions.
    rewrite <- !app_assoc. reflexivity.
  Qed.
End Expand.

(* both layers together: in a final state of parblock the calls issued on a copied file are Ops.copy_actions for SOME
   completion order bs of its blocks (C10 and C18 read the order of the calls off copy_actions_order) *)
Theorem parblock_file_calls W Q ops s h js fc src dst e0 blk :
  reachable W Q ops s -> final s = true -> nth_error ops h = Some (OCopy js) ->
  ce_dst_exists e0 && ce_same_file e0 = false -> ce_cloned e0 = false ->
  exists bs, Permutation bs js /\
    copy_actions fc src dst (with_writes e0 (map blk (rev bs))) =
    (flat_map (ev_actions fc src dst e0 blk) (events_of h (b_ev s)), true).
Proof.
  intros Hr Hf Hn Hsame Hcl. destruct (complete_copy (parblock_any_schedule W Q ops s Hr Hf) Hn) as (bs & Eph & H).
  exists bs. split; [exact H|]. now apply history_is_copy_actions.
Qed.
