(* Translator tie (see ExtractedOk.v): the validation block of main(). *)
From XcpModel Require Import Base Paths Walker Main Extracted.

(* a source ending in `..` maps onto the destination itself; every other last component is joined to it *)
Lemma target_base_eq dest s dd ntd :
  target_base dest s dd ntd =
  match last_comp s with
  | None => None
  | Some c => Some (if dd && negb ntd && negb (comp_eqb c CParent) then join dest [c] else dest)
  end.
Proof. unfold target_base. destruct (last_comp s) as [[]|]; try reflexivity; destruct (dd && negb ntd && _); reflexivity. Qed.

Section XV.
  Variable exists_ is_dir : path -> bool.
  Variable same_file : path -> path -> bool.
  Variable o : opts.

  Lemma x_check_sources_ok dest : forall ss seenM seenX,
    (forall p, existsb (path_eqb p) seenM = existsb (path_eqb p) seenX) ->
    x_check_sources exists_ is_dir same_file o dest seenX ss =
    check_sources exists_ is_dir same_file o dest (exists_ dest && is_dir dest) seenM ss.
  Proof.
    induction ss as [|s r IH]; intros seenM seenX Hseen; [reflexivity|].
    cbn [x_check_sources check_sources]. unfold check_source. rewrite target_base_eq.
    destruct (exists_ s); cbn [negb]; [|reflexivity].
    destruct (is_dir s && negb (o_recursive o)); [reflexivity|].
    destruct (path_eqb s dest); [reflexivity|].
    destruct (last_comp s) as [c|]; [|reflexivity].
    cbv zeta. set (tb := if _ && negb (comp_eqb c CParent) then join dest [c] else dest).
    destruct (path_eqb s tb || exists_ tb && same_file s tb); [reflexivity|].
    destruct (is_dir s && exists_ tb && negb (is_dir tb)); [reflexivity|].
    rewrite (Hseen tb). destruct (existsb (path_eqb tb) seenX); [reflexivity|].
    apply IH. intros p. rewrite existsb_app. cbn [existsb]. rewrite Hseen, orb_false_r. apply orb_comm.
  Qed.

  Theorem x_validate_ok : forall sources dest,
    x_validate exists_ is_dir same_file o sources dest = validate exists_ is_dir same_file o sources dest.
  Proof.
    intros sources dest. unfold x_validate, validate.
    destruct sources as [|s0 rest]; [reflexivity|].
    rewrite <- (x_check_sources_ok dest (s0 :: rest) [] []) by reflexivity.
    destruct (is_dir dest); cbn [negb andb]; [reflexivity|].
    destruct rest as [|s1 rest']; cbn [List.length hd Nat.eqb Nat.ltb Nat.leb andb].
    - destruct (is_dir s0 && exists_ dest); reflexivity.
    - reflexivity.
  Qed.
End XV.
