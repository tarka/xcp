(* Facts about Base's own definitions and about lists that the standard library of 8.16 lacks, and two tactics for goals
   of a recurring shape; nothing here mentions the model. *)
From XcpModel Require Import Base.
From Coq Require Import PeanoNat Permutation.

Lemma sumN_app a b : sumN (a ++ b) = sumN a + sumN b.
Proof. induction a as [|x a IH]; cbn [app sumN]; [reflexivity|rewrite IH; lia]. Qed.

Lemma sumN_map_0 {A} (l : list A) : sumN (map (fun _ => 0) l) = 0.
Proof. induction l as [|x l IH]; cbn [map sumN]; lia. Qed.

Lemma sumN_map_add {A} (f g : A -> N) l : sumN (map (fun x => f x + g x) l) = sumN (map f l) + sumN (map g l).
Proof. induction l as [|x l IH]; cbn [map sumN]; lia. Qed.

Lemma sumN_map_le {A} (f g : A -> N) l : (forall x, f x <= g x) -> sumN (map f l) <= sumN (map g l).
Proof. intros H. induction l as [|x l IH]; cbn [map sumN]; [lia|]. specialize (H x). lia. Qed.

Lemma sumN_indicator g n fs : NoDup fs -> In g fs -> sumN (map (fun f => if Nat.eqb f g then n else 0) fs) = n.
Proof.
  induction 1 as [|x fs Hx _ IH]; [intros []|]. cbn [map sumN]. destruct (Nat.eqb_spec x g) as [->|Hne]; intros [E|Hg]; try contradiction.
  - rewrite (map_ext_in _ (fun _ => 0)), sumN_map_0; [lia|]. intros f Hf. destruct (Nat.eqb_spec f g); [congruence|reflexivity].
  - now rewrite IH.
Qed.

(* summing over the keys first: when all of w e is the share (sel) of the key of e, the totals of the shares of the keys
   add up to the total of w *)
Lemma sumN_by_key {A} (key : A -> nat) (sel : nat -> A -> N) (w : A -> N) fs l :
  NoDup fs -> (forall e, In e l -> In (key e) fs) -> (forall e f, sel f e = if Nat.eqb f (key e) then w e else 0) ->
  sumN (map w l) = sumN (map (fun f => sumN (map (sel f) l)) fs).
Proof.
  intros Hnd Hin Hsel. induction l as [|e r IH]; cbn [map sumN]; [now rewrite sumN_map_0|].
  rewrite sumN_map_add, <- IH, (map_ext _ _ (Hsel e)), sumN_indicator; auto with datatypes.
Qed.

(* sumN_app for a sum over nat, in the form the step measures of the concurrent models are written in *)
Lemma fold_add_app {A} (f : A -> nat) a b :
  fold_right (fun x n => (f x + n)%nat) 0%nat (a ++ b) =
  (fold_right (fun x n => (f x + n)%nat) 0%nat a + fold_right (fun x n => (f x + n)%nat) 0%nat b)%nat.
Proof. induction a as [|x a IH]; cbn [app fold_right]; [reflexivity|]. rewrite IH. lia. Qed.

Lemma nth_error_mid {A} {l : list A} : forall {k x}, nth_error l k = Some x -> l = firstn k l ++ x :: skipn (S k) l.
Proof.
  induction l as [|y l IH]; intros [|k] x H; cbn [nth_error] in H; try discriminate.
  - injection H as ->. reflexivity.
  - cbn [firstn skipn app]. f_equal. apply IH, H.
Qed.

Lemma nth_error_last {A} (l : list A) (d : A) : l <> [] -> nth_error l (length l - 1) = Some (last l d).
Proof.
  induction l as [|x l IH]; intros H; [contradiction|]. destruct l as [|y l]; [reflexivity|].
  specialize (IH ltac:(discriminate)). cbn [length Nat.sub] in *. rewrite Nat.sub_0_r in IH. exact IH.
Qed.

Lemma skipn_cons_nth {A} (l : list A) : forall n x r, skipn n l = x :: r -> nth_error l n = Some x /\ skipn (S n) l = r.
Proof.
  induction l as [|y l IH]; intros [|n] x r H; try discriminate; cbn [skipn] in H.
  - now injection H as -> ->.
  - now apply IH.
Qed.

Lemma skipn_app_exact {A} (r s : list A) : skipn (length r) (r ++ s) = s.
Proof. induction r; cbn; auto. Qed.

Lemma filter_none {A} (f : A -> bool) l : (forall x, In x l -> f x = false) -> filter f l = [].
Proof.
  induction l as [|x l IH]; intros H; [reflexivity|]. cbn [filter]. rewrite (H x (or_introl eq_refl)).
  apply IH. intros y Hy. apply H. now right.
Qed.

Lemma filter_all {A} (f : A -> bool) l : (forall x, In x l -> f x = true) -> filter f l = l.
Proof.
  induction l as [|x l IH]; intros H; [reflexivity|]. cbn [filter]. rewrite (H x (or_introl eq_refl)).
  f_equal. apply IH. intros y Hy. apply H. now right.
Qed.

Lemma map_inj {A B} (f : A -> B) : (forall a b, f a = f b -> a = b) -> forall l l', map f l = map f l' -> l = l'.
Proof.
  intros Hf. induction l as [|x l IH]; intros [|y l'] H; try discriminate; [reflexivity|].
  injection H as Hx Hl. now rewrite (Hf x y Hx), (IH l' Hl).
Qed.

Lemma flat_map_nil {A B} (f : A -> list B) l : Forall (fun a => f a = []) l -> flat_map f l = [].
Proof. induction 1 as [|a l Ha _ IH]; [reflexivity|]. cbn [flat_map]. now rewrite Ha, IH. Qed.

Lemma flat_map_map {A B C} (f : B -> list C) (g : A -> B) l : flat_map f (map g l) = flat_map (fun x => f (g x)) l.
Proof. now rewrite !flat_map_concat_map, map_map. Qed.

Lemma fold_left_push {A B} (f : A -> B) l : forall acc,
  fold_left (fun acc x => acc ++ [f x]) l acc = acc ++ map f l.
Proof.
  induction l as [|x l IH]; intros acc; cbn [fold_left map]; [now rewrite app_nil_r|].
  now rewrite IH, <- app_assoc.
Qed.

Lemma fold_option_inv {A B} (f : A -> B -> option A) (P : A -> Prop) :
  (forall a b a', f a b = Some a' -> P a -> P a') ->
  forall l a a', fold_left (fun oa b => match oa with Some x => f x b | None => None end) l (Some a) = Some a' -> P a -> P a'.
Proof.
  intros Hf. induction l as [|b l IH]; intros a a'; cbn [fold_left]; [now intros [= <-]|].
  destruct (f a b) as [a1|] eqn:E; [intros H Ha; exact (IH a1 a' H (Hf a b a1 E Ha))|].
  (* once a step has failed the fold stays at None *)
  intros H. exfalso. clear -H. induction l as [|b' l IHl]; [discriminate|exact (IHl H)].
Qed.

Lemma NoDup_app {A} (a b : list A) :
  NoDup a -> NoDup b -> (forall x, In x a -> ~ In x b) -> NoDup (a ++ b).
Proof.
  induction a as [|x a IH]; intros Ha Hb Hd; [exact Hb|].
  inversion Ha as [|? ? Hx Ha']; subst. cbn [app]. constructor.
  - intros Hin. apply in_app_or in Hin. destruct Hin as [Hin|Hin]; [contradiction|].
    apply (Hd x (or_introl eq_refl) Hin).
  - apply IH; [assumption|assumption|]. intros y Hy. apply Hd. now right.
Qed.

Lemma NoDup_map_filter {A B} (g : A -> B) (f : A -> bool) l : NoDup (map g l) -> NoDup (map g (filter f l)).
Proof.
  induction l as [|x l IH]; intros H; [constructor|]. inversion H as [|? ? Hx Hl]; subst. cbn [filter].
  destruct (f x); [|now apply IH]. cbn [map]. constructor; [|now apply IH].
  intros Hin. apply Hx. apply in_map_iff in Hin. destruct Hin as (y & Hy & Hin). apply filter_In in Hin.
  apply in_map_iff. exists y. tauto.
Qed.

Lemma perm_filter {A} (f : A -> bool) l l' : Permutation l l' -> Permutation (filter f l) (filter f l').
Proof.
  induction 1 as [|x l l' _ IH|x y l|l l' l'' _ IH1 _ IH2]; cbn [filter].
  - constructor.
  - destruct (f x); [now constructor|exact IH].
  - destruct (f x), (f y); try reflexivity. apply perm_swap.
  - now transitivity (filter f l').
Qed.

(* a list of pairs read as `exists a b, In (a, b) l /\ ...` has the rules of Exists *)
Lemma ex_in_pair {A B} (P : A -> B -> Prop) l :
  (exists a b, In (a, b) l /\ P a b) <-> Exists (fun p => P (fst p) (snd p)) l.
Proof.
  rewrite Exists_exists. split.
  - intros (a & b & Hin & HP). now exists (a, b).
  - intros ([a b] & Hin & HP). now exists a, b.
Qed.

Lemma existsb_eqb_in {A} (eqb : A -> A -> bool) (p : A) l :
  (forall b, eqb p b = true <-> p = b) -> existsb (eqb p) l = true <-> In p l.
Proof.
  intros H. rewrite existsb_exists. split.
  - intros [x [Hin He]]. apply H in He. now subst.
  - intros Hin. exists p. split; [exact Hin|now apply H].
Qed.

Lemma existsb_false_Forall {A} (p : A -> bool) l : Forall (fun a => p a = false) l -> existsb p l = false.
Proof. induction 1 as [|a l Ha _ IH]; [reflexivity|]. cbn [existsb]. now rewrite Ha. Qed.

(* A list written as a concatenation of literal, optional (`if`, `match` on an option), repeated and flat-mapped
   segments: a property of all its elements is checked segment by segment, down to the single elements.  The rule for ++
   is an implication: the library's Forall_app, an iff, would be tried in both directions on every segment.  The rules for
   flat_map and map ask the property of EVERY image, not only of the images of the list's elements. *)
Lemma Forall_app_intro {A} (P : A -> Prop) l1 l2 : Forall P l1 -> Forall P l2 -> Forall P (l1 ++ l2).
Proof. intros H1 H2. apply Forall_app. now split. Qed.

Lemma Forall_if {A} (P : A -> Prop) (b : bool) l1 l2 : Forall P l1 -> Forall P l2 -> Forall P (if b then l1 else l2).
Proof. now destruct b. Qed.

Lemma Forall_option {A B} (P : A -> Prop) (o : option B) f l :
  (forall n, Forall P (f n)) -> Forall P l -> Forall P (match o with Some n => f n | None => l end).
Proof. now destruct o. Qed.

Lemma Forall_repeat {A} (P : A -> Prop) a n : P a -> Forall P (repeat a n).
Proof. intros H. induction n; constructor; assumption. Qed.

Lemma Forall_flat_map_all {A B} (P : B -> Prop) (f : A -> list B) l : (forall x, Forall P (f x)) -> Forall P (flat_map f l).
Proof. intros H. apply Forall_flat_map. now apply Forall_forall. Qed.

Lemma Forall_map_all {A B} (P : B -> Prop) (f : A -> B) l : (forall x, P (f x)) -> Forall P (map f l).
Proof. intros H. apply Forall_map. now apply Forall_forall. Qed.

Ltac by_segments :=
  repeat first [apply Forall_nil | apply Forall_cons | apply Forall_app_intro | apply Forall_if | apply Forall_repeat
               | apply Forall_flat_map_all; intros ? | apply Forall_map_all; intros ? | apply Forall_option; [intros ?|]].

Lemma Forall2_reflects {A} (P : A -> Prop) rs bs :
  Forall2 (fun r b => P r <-> b = true) rs bs -> (Forall P rs <-> forallb (fun b => b) bs = true).
Proof.
  induction 1 as [|r b rs bs Hrb _ IH]; cbn [forallb]; [split; [reflexivity|constructor]|].
  split; intros H.
  - apply andb_true_iff. split; [apply Hrb, (Forall_inv H)|apply IH, (Forall_inv_tail H)].
  - apply andb_true_iff in H. constructor; [apply Hrb|apply IH]; apply H.
Qed.

(* H : step s l = Some s', the state and the label destructed.  One goal per arm of the step function that returns
   Some, with s' replaced by what the arm builds; a test a <? b leaves a < b or b <= a in the context *)
Ltac split_step H :=
  repeat match type of H with
         | context [match ?x with _ => _ end] =>
             lazymatch x with
             | (?a <? ?b)%nat => destruct (Nat.ltb_spec a b)
             | _ => tryif is_var x then destruct x else destruct x eqn:?
             end; try discriminate H
         end;
  injection H as <-.
