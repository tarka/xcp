From XcpModel Require Import Base Backup.

Lemma name_eqb_eq a : forall b, name_eqb a b = true <-> a = b.
Proof.
  induction a as [|x a IH]; intros [|y b]; cbn [name_eqb]; try (split; congruence).
  rewrite andb_true_iff, N.eqb_eq, IH. split; [intros [-> ->]; reflexivity|intros [= -> ->]; now split].
Qed.

Lemma name_eqb_spec a b : reflect (a = b) (name_eqb a b).
Proof. apply iff_reflect. symmetry. apply name_eqb_eq. Qed.

Lemma name_eqb_refl a : name_eqb a a = true.
Proof. now apply name_eqb_eq. Qed.

Lemma name_eqb_neq a b : a <> b -> name_eqb a b = false.
Proof. now destruct (name_eqb_spec a b). Qed.

Definition no_dot (l : name) : Prop := Forall (fun c => c <> DOT) l.

Lemma rsplit_dot_go_none l : no_dot l -> rsplit_dot_go l = None.
Proof.
  induction 1 as [|x r Hx _ IH]; cbn [rsplit_dot_go]; [reflexivity|]. rewrite IH. now destruct (N.eqb_spec x DOT).
Qed.

Lemma rsplit_dot_go_app b a : no_dot a -> rsplit_dot_go (b ++ DOT :: a) = Some (b, a).
Proof.
  intros Ha. induction b as [|x b IH]; cbn [app rsplit_dot_go]; [|now rewrite IH].
  now rewrite (rsplit_dot_go_none a Ha), N.eqb_refl.
Qed.

Lemma rsplit_dot_go_spec l :
  match rsplit_dot_go l with Some (b, a) => l = b ++ DOT :: a /\ no_dot a | None => no_dot l end.
Proof.
  induction l as [|x r IH]; cbn [rsplit_dot_go]; [constructor|].
  destruct (rsplit_dot_go r) as [[b a]|]; [destruct IH as [-> Ha]; now split|].
  destruct (N.eqb_spec x DOT) as [->|Hx]; [now split|now constructor].
Qed.

Definition dval (l : name) (acc : N) : N := fold_left (fun a c => a * 10 + (c - 48)) l acc.
Definition all_digits (l : name) : Prop := Forall (fun c => is_digit c = true) l.

Lemma parse_dec_go_digits l : forall acc, all_digits l -> parse_dec_go acc l = Some (dval l acc).
Proof.
  induction l as [|c r IH]; intros acc H; [reflexivity|].
  inversion H as [|? ? Hc Hr]; subst. cbn [parse_dec_go dval fold_left]. rewrite Hc. now apply IH.
Qed.

Lemma parse_dec_go_some l : forall acc v, parse_dec_go acc l = Some v -> all_digits l /\ v = dval l acc.
Proof.
  induction l as [|c r IH]; intros acc v; cbn [parse_dec_go].
  - intros H. injection H as <-. split; [constructor|reflexivity].
  - destruct (is_digit c) eqn:Hc; [|discriminate]. intros H. apply IH in H. destruct H as [H1 H2].
    split; [now constructor|exact H2].
Qed.

Lemma parse_u64_some ds k : parse_u64 ds = Some k -> all_digits ds /\ k < U64.
Proof.
  unfold parse_u64. destruct ds as [|c r]; [discriminate|].
  destruct (parse_dec_go 0 (c :: r)) as [v|] eqn:E; [|discriminate]. apply parse_dec_go_some in E.
  destruct (N.ltb_spec v U64); [|discriminate]. intros [= <-]. tauto.
Qed.

Lemma digit_not_dot c : is_digit c = true -> c <> DOT.
Proof. unfold is_digit, DOT. intros H ->. discriminate. Qed.

Lemma parse_tilde_num_spec ds : parse_tilde_num (TILDE :: ds ++ [TILDE]) = parse_u64 ds.
Proof.
  unfold parse_tilde_num. rewrite N.eqb_refl. rewrite rev_app_distr. cbn [rev app].
  rewrite N.eqb_refl. now rewrite rev_involutive.
Qed.

Lemma parse_tilde_num_some ext k : parse_tilde_num ext = Some k ->
  exists ds, ext = TILDE :: ds ++ [TILDE] /\ parse_u64 ds = Some k.
Proof.
  unfold parse_tilde_num. destruct ext as [|c r]; [discriminate|].
  destruct (N.eqb_spec c TILDE) as [->|]; [|discriminate].
  destruct (rev r) as [|c' mid] eqn:Er; [discriminate|].
  destruct (N.eqb_spec c' TILDE) as [->|]; [|discriminate].
  intros H. exists (rev mid). split; [|exact H].
  f_equal. rewrite <- (rev_involutive r), Er. reflexivity.
Qed.

(* the backups of `base` are exactly the names `<base>.~<digits>~` whose digits are a u64 (and nothing has a backup
   of the empty name: a stem is never empty) *)
Theorem is_num_backup_iff base cand k :
  is_num_backup base cand = Some k <->
  base <> [] /\ exists ds, cand = base ++ [DOT; TILDE] ++ ds ++ [TILDE] /\ parse_u64 ds = Some k.
Proof.
  unfold is_num_backup, split_ext. split.
  - destruct (name_eqb cand [DOT; DOT]); [discriminate|].
    pose proof (rsplit_dot_go_spec cand) as Hs. destruct (rsplit_dot_go cand) as [[[|b0 b'] a]|]; [discriminate| |discriminate].
    destruct (name_eqb_spec (b0 :: b') base) as [<-|]; [|discriminate]. destruct Hs as [-> _].
    intros H. apply parse_tilde_num_some in H. destruct H as (ds & -> & Hp). split; [discriminate|exists ds; auto].
  - intros (Hb & ds & -> & Hp).
    rewrite (name_eqb_neq _ [DOT; DOT]).
    2: { intros H. apply (f_equal (@length N)) in H. rewrite !app_length in H. destruct base; [contradiction|cbn in H; lia]. }
    change (base ++ [DOT; TILDE] ++ ds ++ [TILDE]) with (base ++ DOT :: TILDE :: ds ++ [TILDE]).
    rewrite rsplit_dot_go_app.
    + destruct base; [contradiction|]. now rewrite name_eqb_refl, parse_tilde_num_spec.
    + constructor; [discriminate|]. apply Forall_app. split; [|repeat constructor; discriminate].
      apply parse_u64_some in Hp. destruct Hp as [Hd _]. revert Hd. apply Forall_impl, digit_not_dot.
Qed.

Lemma parse_dec_go_app l1 : forall l2 acc,
  parse_dec_go acc (l1 ++ l2) = match parse_dec_go acc l1 with Some v => parse_dec_go v l2 | None => None end.
Proof.
  induction l1 as [|c r IH]; intros l2 acc; cbn [app parse_dec_go]; [reflexivity|]. destruct (is_digit c); [apply IH|reflexivity].
Qed.

Lemma parse_digit acc d : d < 10 -> parse_dec_go acc [48 + d] = Some (acc * 10 + d).
Proof.
  intros H. cbn [parse_dec_go]. replace (is_digit (48 + d)) with true; [f_equal; lia|].
  symmetry. apply andb_true_iff. split; apply N.leb_le; lia.
Qed.

(* printing then parsing gives the number back: n = (n / 10) * 10 + n mod 10 at every digit *)
Lemma parse_print_dec_go fuel : forall n, n < 10 ^ N.of_nat fuel -> parse_dec_go 0 (print_dec_go fuel n) = Some n.
Proof.
  induction fuel as [|f IH]; intros n Hn; [cbn in *; f_equal; lia|]. cbn [print_dec_go].
  destruct (N.ltb_spec n 10) as [Hlt|Hge]; [now apply parse_digit|].
  rewrite parse_dec_go_app, IH, parse_digit; [|apply N.mod_lt; discriminate|].
  - f_equal. rewrite N.mul_comm. symmetry. apply N.div_mod. discriminate.
  - rewrite Nat2N.inj_succ, N.pow_succ_r' in Hn. apply N.div_lt_upper_bound; [discriminate|exact Hn].
Qed.

Lemma print_dec_go_nonempty f n : print_dec_go (S f) n <> [].
Proof. cbn [print_dec_go]. destruct (n <? 10); [discriminate|]. intros H. apply app_eq_nil in H. destruct H; discriminate. Qed.

Lemma parse_print_dec n : n < U64 -> parse_u64 (print_dec n) = Some n.
Proof.
  intros Hn. unfold parse_u64, print_dec. pose proof (print_dec_go_nonempty 20 n) as Hne.
  rewrite parse_print_dec_go.
  - destruct (print_dec_go 21 n); [contradiction|]. cbn. now rewrite (proj2 (N.ltb_lt n U64) Hn).
  - apply (N.lt_le_trans _ _ _ Hn). vm_compute. discriminate.
Qed.

Corollary backup_name_recognised base n : base <> [] -> n < U64 -> is_num_backup base (backup_name base n) = Some n.
Proof. intros Hb Hn. apply is_num_backup_iff. split; [exact Hb|]. exists (print_dec n). exact (conj eq_refl (parse_print_dec n Hn)). Qed.

Lemma backup_name_neq base n : base <> backup_name base n.
Proof.
  unfold backup_name. intros H. apply (f_equal (@length N)) in H. rewrite !app_length in H. cbn [length] in H. lia.
Qed.

Lemma max_list_ge l x : In x l -> x <= max_list l.
Proof.
  induction l as [|y r IH]; [intros []|]. intros [->|H]; cbn [max_list fold_right].
  - lia.
  - specialize (IH H). unfold max_list in IH. lia.
Qed.

Lemma max_list_lt l b : 0 < b -> (forall x, In x l -> x < b) -> max_list l < b.
Proof.
  intros Hb. induction l as [|y r IH]; intros Hl; [exact Hb|]. cbn [max_list fold_right].
  apply N.max_lub_lt; [apply Hl; now left|]. apply IH. intros x Hx. apply Hl. now right.
Qed.

Lemma backup_nums_in base entries k :
  In k (backup_nums base entries) <-> exists c, In c entries /\ is_num_backup base c = Some k.
Proof.
  unfold backup_nums. rewrite in_flat_map. split; intros (c & Hc & H); exists c; (split; [exact Hc|]).
  - destruct (is_num_backup base c); [destruct H as [<-|[]]; reflexivity|destruct H].
  - rewrite H. now left.
Qed.

Lemma next_backup_num_some {base entries n} :
  next_backup_num base entries = Some n -> n = max_list (backup_nums base entries) + 1 /\ n < U64.
Proof.
  unfold next_backup_num. destruct (N.ltb_spec (max_list (backup_nums base entries) + 1) U64); [|discriminate].
  intros [= <-]. now split.
Qed.

Lemma next_backup_num_pos {base entries n} : next_backup_num base entries = Some n -> 1 <= n.
Proof. intros H. apply next_backup_num_some in H. lia. Qed.

Lemma next_backup_num_above {base entries n c k} :
  next_backup_num base entries = Some n -> In c entries -> is_num_backup base c = Some k -> k < n.
Proof.
  intros H Hc Hk. apply next_backup_num_some in H. destruct H as [-> _].
  enough (k <= max_list (backup_nums base entries)) by lia. apply max_list_ge, backup_nums_in. exists c; auto.
Qed.

Lemma next_backup_num_fresh {base entries n} : base <> [] ->
  next_backup_num base entries = Some n -> ~ In (backup_name base n) entries.
Proof.
  intros Hb H Hin. apply (N.lt_irrefl n), (next_backup_num_above H Hin), backup_name_recognised; [exact Hb|].
  apply next_backup_num_some in H. apply H.
Qed.

Lemma next_backup_num_defined base entries :
  (forall c k, In c entries -> is_num_backup base c = Some k -> k < U64MAX) ->
  exists n, next_backup_num base entries = Some n.
Proof.
  intros H. unfold next_backup_num.
  assert (max_list (backup_nums base entries) < U64MAX) as Hm.
  { apply max_list_lt; [reflexivity|]. intros k Hk. apply backup_nums_in in Hk. destruct Hk as (c & Hc & Hk). eauto. }
  eexists. destruct (N.ltb_spec (max_list (backup_nums base entries) + 1) U64); [reflexivity|].
  unfold U64, U64MAX in *. lia.
Qed.

(* auto mode makes a backup exactly when a backup of THAT name exists *)
Lemma auto_iff_backup_exists base entries :
  needs_backup 1 true base entries = true <-> exists c k, In c entries /\ is_num_backup base c = Some k.
Proof.
  change (needs_backup 1 true base entries) with (has_backup base entries). unfold has_backup. split.
  - destruct (backup_nums base entries) as [|k r] eqn:E; [discriminate|]. intros _.
    destruct (proj1 (backup_nums_in base entries k)) as (c & Hc & Hk); [rewrite E; now left|]. exists c, k; auto.
  - intros (c & k & Hc & Hk). assert (In k (backup_nums base entries)) as Hin by (apply backup_nums_in; exists c; auto).
    destruct (backup_nums base entries); [destruct Hin|reflexivity].
Qed.

Lemma needs_backup_absent mode base entries : needs_backup mode false base entries = false.
Proof. unfold needs_backup. now destruct (mode =? 0), (mode =? 1). Qed.

Lemma dir_get_remove d n m : dir_get (dir_remove d n) m = if name_eqb n m then None else dir_get d m.
Proof.
  induction d as [|[k v] r IH]; cbn [dir_remove dir_get]; [now destruct (name_eqb n m)|].
  destruct (name_eqb_spec k n) as [->|Hk]; cbn [dir_get]; rewrite IH; destruct (name_eqb_spec n m) as [->|]; try reflexivity.
  now rewrite (name_eqb_neq k m Hk).
Qed.

Lemma dir_get_remove_same d n : dir_get (dir_remove d n) n = None.
Proof. now rewrite dir_get_remove, name_eqb_refl. Qed.

Lemma dir_get_set d n v m : dir_get (dir_set d n v) m = if name_eqb n m then Some v else dir_get d m.
Proof. unfold dir_set. cbn [dir_get]. rewrite dir_get_remove. now destruct (name_eqb n m). Qed.

Lemma dir_get_rename d from to m :
  dir_get (dir_rename d from to) m =
  match dir_get d from with
  | Some v => if name_eqb to m then Some v else if name_eqb from m then None else dir_get d m
  | None => dir_get d m
  end.
Proof. unfold dir_rename. destruct (dir_get d from); [|reflexivity]. now rewrite dir_get_set, dir_get_remove. Qed.

Lemma dir_get_notin d n : ~ In n (dir_names d) -> dir_get d n = None.
Proof.
  induction d as [|[k w] r IH]; intros H; [reflexivity|]. cbn [dir_get].
  destruct (name_eqb_spec k n) as [->|]; [exfalso; apply H; now left|]. apply IH. intros Hi. apply H. now right.
Qed.

(* the directory after an overwrite, as a map: the new content at the destination; when a backup is made (the destination
   exists, the mode asks for one, n is the number chosen) the old content at the backup name; every other entry as before *)
Theorem overwrite_get {mode d base c d'} : overwrite mode d base c = Some d' -> forall m,
  dir_get d' m =
  if name_eqb base m then Some c else
  match dir_get d base, next_backup_num base (dir_names d) with
  | Some old, Some n =>
      if needs_backup mode true base (dir_names d) && name_eqb (backup_name base n) m then Some old else dir_get d m
  | _, _ => dir_get d m
  end.
Proof.
  unfold overwrite. destruct (dir_get d base) as [old|] eqn:Eo.
  - destruct (needs_backup mode true base (dir_names d)).
    + destruct (next_backup_num base (dir_names d)) as [n|]; [|discriminate]. intros [= <-] m.
      rewrite dir_get_set, dir_get_rename, Eo. now destruct (name_eqb base m).
    + intros [= <-] m. rewrite dir_get_set. now destruct (next_backup_num base (dir_names d)).
  - rewrite needs_backup_absent. intros [= <-] m. apply dir_get_set.
Qed.

Lemma overwrite_backup_num {mode d base c d' old} : overwrite mode d base c = Some d' -> dir_get d base = Some old ->
  needs_backup mode true base (dir_names d) = true -> exists n, next_backup_num base (dir_names d) = Some n.
Proof.
  unfold overwrite. intros H Hold Hn. rewrite Hold, Hn in H.
  destruct (next_backup_num base (dir_names d)) as [n|]; [now exists n|discriminate H].
Qed.

(* an entry other than the destination, once there, keeps its content: the backup name is a fresh one *)
Corollary overwrite_frame {mode d base c d' m v} : base <> [] -> overwrite mode d base c = Some d' ->
  m <> base -> dir_get d m = Some v -> dir_get d' m = Some v.
Proof.
  intros Hb Ho Hm Hv. rewrite (overwrite_get Ho), name_eqb_neq by congruence.
  destruct (dir_get d base) as [old|], (next_backup_num base (dir_names d)) as [n|] eqn:En; try exact Hv.
  destruct (needs_backup mode true base (dir_names d)), (name_eqb_spec (backup_name base n) m) as [<-|]; try exact Hv.
  rewrite (dir_get_notin d _ (next_backup_num_fresh Hb En)) in Hv. discriminate Hv.
Qed.

(* kill points: in every intermediate state of an overwrite that makes a
   backup, the old content is under the original or under the backup name *)
Lemma overwrite_steps_keep_old mode d base c steps old :
  overwrite_steps mode d base c = Some steps -> dir_get d base = Some old ->
  needs_backup mode true base (dir_names d) = true ->
  exists n, next_backup_num base (dir_names d) = Some n /\
  forall s, In s steps -> dir_get s base = Some old \/ dir_get s (backup_name base n) = Some old.
Proof.
  intros Ho Hold Hn. unfold overwrite_steps in Ho. rewrite Hold, Hn in Ho.
  destruct (next_backup_num base (dir_names d)) as [n|]; [|discriminate].
  injection Ho as <-. exists n. split; [reflexivity|].
  intros s [<-|[<-|[<-|[]]]].
  - now left.
  - right. now rewrite dir_get_rename, Hold, name_eqb_refl.
  - right. now rewrite dir_get_set, (name_eqb_neq _ _ (backup_name_neq base n)), dir_get_rename, Hold, name_eqb_refl.
Qed.
