(* Translator tie (see ExtractedOk.v): the kernel-call loops CopyHandle::copy_bytes and copy_sparse, libfs copy_range_uspace and
   copy_bytes_uspace with their buffers, next_sparse_segments, read_bytes / write_bytes, errno classes of copy_file_range / lseek. *)
From XcpModel Require Import Base Sparse CopyLoop Uspace FileCopy Extracted.
From XcpProofs Require Import UspaceProofs.
From Coq Require Import String.

Theorem x_copy_bytes_continue_ok : forall written len, x_copy_bytes_continue written len = negb (len <=? written).
Proof. intros. apply N.ltb_antisym. Qed.
Theorem x_copy_bytes_request_ok : forall written len bs, x_copy_bytes_request written len bs = N.min (len - written) bs.
Proof. reflexivity. Qed.

Theorem x_cfr_fallback_ok : forall e, existsb (N.eqb e) x_cfr_fallback_errnos = cfr_falls_back e.
Proof. intros e. cbn [x_cfr_fallback_errnos existsb]. now rewrite orb_false_r, orb_assoc. Qed.

Theorem x_lseek_eof_ok : x_lseek_eof_errnos = [ENXIO].
Proof. reflexivity. Qed.

(* the block fallback reads and writes at explicit offsets (pread/pwrite): concurrent block jobs of one file
   share the two descriptors, so nothing may go through their cursors *)
Theorem x_positional_io_ok : x_read_bytes_steps = [50] /\ x_write_bytes_steps = [51].
Proof. split; reflexivity. Qed.

Theorem x_next_segment_ok : forall sd sh len pos, x_next_segment sd sh len pos = next_segment sd sh len pos.
Proof. intros. unfold x_next_segment, next_segment. destruct (sd pos) as [o| |e]; reflexivity. Qed.

(* The translated loops equal the hand-written models.  They append each event to an accumulator `tr` where the models
   cons it in front of the recursive result: the equations below move between the two, and associativity of ++ is the
   only step of the loop proofs that is not computation.  Each of the four proofs unfolds one iteration on both sides
   and flips the guard; of the four cases (fuel spent or not, guard false or true) the first three return the
   accumulator; then every destruct follows a
   test of the loop body, in program order: the arms that return are closed inside its brackets, by computation (after
   reassociating, once two events have been appended); the arm that goes on is the next line, and the one that goes
   round the loop ends in the induction hypothesis and out_app_app / u_app_app. *)
Lemma out_app_nil_l o : out_app [] o = o.
Proof. now destruct o. Qed.
Lemma out_app_nil_r tr st r : out_app tr (mkOut st [] r) = mkOut st tr r.
Proof. unfold out_app. cbn. now rewrite app_nil_r. Qed.
Lemma out_app_app a b o : out_app a (out_app b o) = out_app (a ++ b) o.
Proof. unfold out_app. cbn. now rewrite app_assoc. Qed.
Lemma u_app_nil_l o : u_app [] o = o.
Proof. now destruct o. Qed.
Lemma u_app_nil_r tr st w r : u_app tr (mkU st w [] r) = mkU st w tr r.
Proof. unfold u_app. cbn. now rewrite app_nil_r. Qed.
Lemma u_app_app a b o : u_app a (u_app b o) = u_app (a ++ b) o.
Proof. unfold u_app. cbn [u_st u_ret u_trace u_rest]. now rewrite app_assoc. Qed.

Lemma x_copy_bytes_loop_ok : forall fuel len bs written cur tr ans,
  x_copy_bytes_loop fuel len bs written cur tr ans = out_app tr (copy_bytes fuel bs len written cur ans).
Proof.
  induction fuel as [|f IH]; intros len bs written cur tr ans; cbn [x_copy_bytes_loop copy_bytes];
    rewrite N.ltb_antisym; destruct (len <=? written); cbn [negb].
  1-3: now rewrite out_app_nil_r.
  destruct ans as [|[k|e] rest]; [now rewrite out_app_nil_r| |reflexivity].
  destruct (N.eqb_spec k 0) as [->|_]; [reflexivity|].
  rewrite IH. symmetry. apply (out_app_app tr [_]).
Qed.

Theorem x_copy_bytes_ok : forall fuel bs len cur ans,
  x_copy_bytes fuel len bs cur ans = copy_bytes fuel bs len 0 cur ans.
Proof. intros. unfold x_copy_bytes. rewrite x_copy_bytes_loop_ok. apply out_app_nil_l. Qed.

(* CopyHandle::copy_sparse (the parfile sparse walk): next_sparse_segments and copy_bytes are the modelled helpers *)
Lemma x_copy_sparse_loop_ok : forall fuel sd sh flen bs pos tr ans,
  x_copy_sparse_loop fuel sd sh flen bs flen pos tr ans = out_app tr (copy_sparse fuel bs flen pos sd sh ans).
Proof.
  induction fuel as [|f IH]; intros sd sh flen bs pos tr ans; cbn [x_copy_sparse_loop copy_sparse];
    rewrite N.ltb_antisym; destruct (flen <=? pos); cbn [negb].
  1-3: now rewrite out_app_nil_r.
  destruct (next_segment sd sh flen pos) as [[d h]|e]; [|now rewrite out_app_nil_r].
  destruct ((h <=? pos) || (h <? d)); [now rewrite out_app_nil_r|].
  destruct (copy_bytes (S (List.length ans)) bs (h - d) 0 d ans) as [st t r]; cbn [o_st o_trace o_rest].
  destruct st; [|reflexivity..].
  rewrite IH. symmetry. apply out_app_app.
Qed.

Theorem x_copy_sparse_ok : forall fuel sd sh flen bs ans,
  x_copy_sparse fuel sd sh flen bs ans = copy_sparse fuel bs flen 0 sd sh ans.
Proof. intros. unfold x_copy_sparse. rewrite x_copy_sparse_loop_ok. apply out_app_nil_l. Qed.

Lemma x_copy_range_uspace_loop_ok : forall fuel nbytes off written tr ans,
  x_copy_range_uspace_loop fuel nbytes off written tr ans = u_app tr (copy_range_uspace fuel nbytes off written ans).
Proof.
  induction fuel as [|f IH]; intros nbytes off written tr ans; cbn [x_copy_range_uspace_loop copy_range_uspace];
    rewrite N.ltb_antisym; destruct (nbytes <=? written); cbn [negb].
  1-3: now rewrite u_app_nil_r.
  rewrite N.min_l by apply N.le_sub_l.
  destruct ans as [|[rlen|e] rest]; [now rewrite u_app_nil_r| |reflexivity].
  destruct (N.eqb_spec rlen 0) as [->|_]; [reflexivity|].
  destruct rest as [|[wlen|e] rest]; [reflexivity| |now rewrite <- app_assoc].
  destruct (wlen <? rlen); [now rewrite <- app_assoc|].
  rewrite IH, <- app_assoc. symmetry. apply u_app_app.
Qed.

Theorem x_copy_range_uspace_ok : forall fuel nbytes off ans,
  x_copy_range_uspace fuel nbytes off ans = copy_range_uspace fuel nbytes off 0 ans.
Proof. intros. unfold x_copy_range_uspace. rewrite x_copy_range_uspace_loop_ok. apply u_app_nil_l. Qed.

Lemma x_copy_bytes_uspace_loop_ok : forall fuel nbytes written rpos wpos tr ans,
  x_copy_bytes_uspace_loop fuel nbytes written rpos wpos tr ans =
  u_app tr (copy_bytes_uspace fuel nbytes rpos wpos written ans).
Proof.
  induction fuel as [|f IH]; intros nbytes written rpos wpos tr ans; cbn [x_copy_bytes_uspace_loop copy_bytes_uspace];
    rewrite N.ltb_antisym; destruct (nbytes <=? written); cbn [negb].
  1-3: now rewrite u_app_nil_r.
  rewrite N.min_l by apply N.le_sub_l.
  destruct ans as [|[len|e] rest]; [now rewrite u_app_nil_r| |].
  - destruct (N.eqb_spec len 0) as [->|_]; [reflexivity|].
    destruct (u_st (write_all (S (List.length rest)) rpos wpos len rest)); [|now rewrite <- app_assoc..].
    rewrite IH, <- app_assoc. symmetry. apply u_app_app.
  - destruct (e =? EINTR); [|reflexivity].
    rewrite IH. symmetry. apply (u_app_app tr [_]).
Qed.

Theorem x_copy_bytes_uspace_ok : forall fuel nbytes rpos wpos ans,
  x_copy_bytes_uspace fuel nbytes rpos wpos ans = copy_bytes_uspace fuel nbytes rpos wpos 0 ans.
Proof. intros. unfold x_copy_bytes_uspace. rewrite x_copy_bytes_uspace_loop_ok. apply u_app_nil_l. Qed.

(* the byte buffer the translated function allocates holds every read the translated loop issues: no `buf[..next]` is
   out of range, so the fall-back cannot panic on a slice (a panic inside a pool job is not an error anyone hears of:
   the pool respawns the thread and the dispatcher sees Ok) *)
Theorem x_range_buffer_holds_every_read : forall fuel nbytes off ans,
  reads_fit (x_copy_range_uspace_buf_len nbytes off) (u_trace (x_copy_range_uspace fuel nbytes off ans)).
Proof.
  intros. rewrite x_copy_range_uspace_ok. apply (reads_fit_mono nbytes); [unfold x_copy_range_uspace_buf_len; lia|].
  apply copy_range_uspace_reads_fit.
Qed.
Theorem x_bytes_buffer_holds_every_read : forall fuel nbytes rpos wpos ans,
  reads_fit (x_copy_bytes_uspace_buf_len nbytes) (u_trace (x_copy_bytes_uspace fuel nbytes rpos wpos ans)).
Proof.
  intros. rewrite x_copy_bytes_uspace_ok. apply (reads_fit_mono nbytes); [unfold x_copy_bytes_uspace_buf_len; lia|].
  apply copy_bytes_uspace_reads_fit.
Qed.
Theorem x_range_buffer_holds_every_write : forall fuel nbytes off ans,
  uans_bounded (u_trace (x_copy_range_uspace fuel nbytes off ans)) ->
  writes_fit (x_copy_range_uspace_buf_len nbytes off) (u_trace (x_copy_range_uspace fuel nbytes off ans)).
Proof.
  intros fuel nbytes off ans. rewrite x_copy_range_uspace_ok. intros Hb.
  apply (writes_fit_mono nbytes); [unfold x_copy_range_uspace_buf_len; lia|].
  apply copy_range_uspace_writes_fit. exact Hb.
Qed.
Theorem x_uspace_buffer_slices :
  x_copy_range_uspace_buf_slices = ["next"; "rlen"]%string /\ x_copy_bytes_uspace_buf_slices = ["next"; "len"]%string.
Proof. split; reflexivity. Qed.
