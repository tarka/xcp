(* The parblock protocol.  Three facts carry everything:
   every step does one unit of work (step_measure), every step keeps the
   (handle, block) pairs of the system (step_pairs), and one invariant (BInv)
   ties the per-file automaton of ConcOutcome.v to the protocol state: the
   handles are taken from the channel in order, and a handle is referenced
   exactly while its automaton is in POpen.  The walker/channel part (Sent) and
   the per-handle part (Coupled) are shared with parfile (ConcFileProofs.v). *)
From XcpModel Require Import Base ConcBlock ConcOutcome.
From XcpProofs Require Import BaseProofs.
From Coq Require Import PeanoNat Permutation.
Local Open Scope nat_scope.

Lemma count_h_cons h j l : count_h h (j :: l) = (if fst j =? h then 1 else 0) + count_h h l.
Proof. unfold count_h. cbn [filter]. now destruct (fst j =? h). Qed.

Lemma count_h_app h a b : count_h h (a ++ b) = count_h h a + count_h h b.
Proof. unfold count_h. now rewrite filter_app, app_length. Qed.

Lemma count_h_in h b l : In (h, b) l -> 0 < count_h h l.
Proof.
  induction l as [|j l IH]; [intros []|]. intros [->|H]; rewrite count_h_cons.
  - cbn [fst]. rewrite Nat.eqb_refl. lia.
  - specialize (IH H). lia.
Qed.

Lemma count_h_pos h l : 0 < count_h h l -> In h (map fst l).
Proof.
  induction l as [|j l IH]; [cbn; lia|]. rewrite count_h_cons. cbn [map In].
  destruct (Nat.eqb_spec (fst j) h); [now left|right; apply IH; lia].
Qed.

Lemma count_h_perm h {l l'} : Permutation l l' -> count_h h l = count_h h l'.
Proof. intros H. apply Permutation_length, perm_filter, H. Qed.

Lemma remove_nth_perm {A} {l : list A} {k x} : nth_error l k = Some x -> Permutation l (x :: remove_nth k l).
Proof.
  revert k. induction l as [|y l IH]; intros [|k] Hn; try discriminate; cbn [nth_error remove_nth] in *.
  - now injection Hn as ->.
  - rewrite (IH k Hn) at 1. apply perm_swap.
Qed.

Lemma remove_nth_length {A} {l : list A} {k x} : nth_error l k = Some x -> S (length (remove_nth k l)) = length l.
Proof. intros Hn. symmetry. exact (Permutation_length (remove_nth_perm Hn)). Qed.

Lemma count_h_remove_nth {l k h b} h' : nth_error l k = Some (h, b) ->
  count_h h' (remove_nth k l) + (if h =? h' then 1 else 0) = count_h h' l.
Proof. intros Hn. rewrite (count_h_perm h' (remove_nth_perm Hn)), count_h_cons. cbn [fst]. lia. Qed.

Lemma remove_h_filter h l : remove_h h l = filter (fun x => negb (x =? h)) l.
Proof. induction l as [|y l IH]; [reflexivity|]. cbn [remove_h filter]. rewrite IH. now destruct (y =? h). Qed.

Lemma in_remove_h h x l : In x (remove_h h l) <-> In x l /\ x <> h.
Proof. now rewrite remove_h_filter, filter_In, Bool.negb_true_iff, Nat.eqb_neq. Qed.

Lemma nodup_remove_h h l : NoDup l -> NoDup (remove_h h l).
Proof. rewrite remove_h_filter. apply NoDup_filter. Qed.

Lemma refs_unfold s h : refs s h = count_h h (b_pq s) + count_h h (b_run s) + (if disp_holds (b_disp s) h then 1 else 0).
Proof. reflexivity. Qed.

(* the test by which the LDone arm of step decides that the last reference goes *)
Lemma last_refP n (d : bool) : reflect (n + (if d then 1 else 0) = 0) ((n =? 0) && negb d).
Proof. destruct (Nat.eqb_spec n 0), d; constructor; lia. Qed.

Lemma final_spec s : final s = true ->
  b_todo s = [] /\ b_fq s = [] /\ b_disp s = DDone /\ b_pq s = [] /\ b_run s = [].
Proof.
  unfold final. destruct (b_todo s); [|discriminate]. destruct (b_fq s); [|discriminate].
  destruct (b_disp s); try discriminate. destruct (b_pq s); [|discriminate]. destruct (b_run s); [|discriminate].
  repeat split.
Qed.

Lemma final_refs s h : final s = true -> refs s h = 0.
Proof.
  intros (_ & _ & Hd & Hp & Hrun)%final_spec. unfold refs. now rewrite Hd, Hp, Hrun.
Qed.

(* after `destruct s`: unfold refs, compute the fields of the explicit state, and `step` once its label is a constructor *)
Ltac st := unfold refs in *; cbn [step b_todo b_next b_wdone b_fq b_disp b_pq b_run b_open b_ev disp_holds] in *.

Theorem step_measure W Q s l s' : step W Q s l = Some s' -> S (measure s') = measure s.
Proof.
  destruct s as [todo next wdone fq disp pq run open ev].
  destruct l as [| | |k]; st; intros H; split_step H; unfold measure; cbn -[Nat.add Nat.mul];
    try match goal with E : nth_error run k = Some _ |- _ => rewrite <- (remove_nth_length E) end;
    rewrite ?fold_add_app, ?app_length; cbn -[Nat.add Nat.mul]; lia.
Qed.

Fixpoint run_labels (W Q : nat) (s : bst) (ls : list label) : option bst :=
  match ls with
  | [] => Some s
  | l :: r => match step W Q s l with Some s' => run_labels W Q s' r | None => None end
  end.

Theorem bounded_steps W Q : forall ls s s', run_labels W Q s ls = Some s' -> length ls + measure s' = measure s.
Proof.
  induction ls as [|l r IH]; intros s s' H; cbn [run_labels] in H.
  - now injection H as <-.
  - destruct (step W Q s l) as [s1|] eqn:E; [|discriminate].
    rewrite <- (step_measure W Q s l s1 E), <- (IH s1 s' H). reflexivity.
Qed.

Lemma written_cons e ev : written (e :: ev) = match e with EWrite h b => [(h, b)] | _ => [] end ++ written ev.
Proof. reflexivity. Qed.

Lemma fq_pairs_app a b : fq_pairs (a ++ b) = fq_pairs a ++ fq_pairs b.
Proof. apply flat_map_app. Qed.

Lemma todo_pairs_cons next o r : todo_pairs next (o :: r) = fq_pairs [(next, o)] ++ todo_pairs (S next) r.
Proof. destruct o; cbn; [now rewrite app_nil_r|reflexivity]. Qed.

Theorem step_pairs W Q s l s' : step W Q s l = Some s' -> Permutation (all_pairs s) (all_pairs s').
Proof.
  destruct s as [todo next wdone fq disp pq run open ev].
  destruct l as [| | |k]; st; intros H; split_step H; unfold all_pairs; st;
    rewrite ?fq_pairs_app, ?todo_pairs_cons; cbn [written fq_pairs flat_map disp_pairs map fst snd app];
    rewrite <- ?app_assoc; try reflexivity.
  (* the two sides are now the same list, except where a job moves: from a worker to the history (LDone) ... *)
  2-3: symmetry; (etransitivity; [apply Permutation_middle|]); apply Permutation_app_head;
    match goal with E : nth_error _ _ = Some _ |- _ =>
      exact (Permutation_app_tail _ (Permutation_sym (remove_nth_perm E))) end.
  (* ... or from the queue to a worker (LTake) *)
  apply Permutation_app_head. symmetry. apply Permutation_middle.
Qed.

Theorem reachable_pairs W Q ops s : reachable W Q ops s -> Permutation (todo_pairs 0 ops) (all_pairs s).
Proof.
  induction 1 as [|s l s' _ IH Hs]; [reflexivity|].
  now rewrite IH, (step_pairs W Q s l s' Hs).
Qed.

Theorem final_writes_complete W Q ops s : reachable W Q ops s -> final s = true ->
  Permutation (todo_pairs 0 ops) (written (b_ev s)).
Proof.
  intros Hr (Ht & Hq & Hd & Hp & Hrun)%final_spec. rewrite (reachable_pairs W Q ops s Hr). unfold all_pairs.
  rewrite Ht, Hq, Hd, Hp, Hrun. cbn. now rewrite app_nil_r.
Qed.

Definition has_final (h : nat) (ev : list bev) : bool := existsb (is_final_of h) ev.

Lemma has_final_cons h e ev : has_final h (e :: ev) = is_final_of h e || has_final h ev.
Proof. reflexivity. Qed.

Lemma phase_of_cons_other h e ev : ev_handle e <> h -> phase_of h (e :: ev) = phase_of h ev.
Proof. intros H. cbn [phase_of]. now destruct (Nat.eqb_spec (ev_handle e) h). Qed.

Lemma phase_of_cons_same h e ev : ev_handle e = h -> phase_of h (e :: ev) = phase_step (phase_of h ev) e.
Proof. intros H. cbn [phase_of]. now destruct (Nat.eqb_spec (ev_handle e) h). Qed.

Lemma phase_step_not_none p e : phase_step p e <> PNone.
Proof. destruct p, e; discriminate. Qed.

Definition closed (p : phase) : Prop := match p with PFinal _ | PBad => True | _ => False end.

Lemma phase_step_closed p e : closed p -> phase_step p e = PBad.
Proof. now destruct p, e. Qed.

Lemma phase_none_no_events {h ev} : phase_of h ev = PNone -> forall e, In e ev -> ev_handle e <> h.
Proof.
  induction ev as [|x ev IH]; intros Hp e Hin; [destruct Hin|]. cbn [phase_of] in Hp.
  destruct (Nat.eqb_spec (ev_handle x) h) as [Hx|Hx]; [now apply phase_step_not_none in Hp|].
  destruct Hin as [<-|Hin]; [exact Hx|now apply IH].
Qed.

Lemma has_final_closed {h ev} : has_final h ev = true -> closed (phase_of h ev).
Proof.
  induction ev as [|e ev IH]; [discriminate|]. rewrite has_final_cons. cbn [phase_of].
  destruct (Nat.eqb_spec (ev_handle e) h) as [He|He].
  - destruct (has_final h ev); [intros _; now rewrite phase_step_closed by now apply IH|].
    rewrite Bool.orb_false_r. destruct e; try discriminate. intros _. now destruct (phase_of h ev).
  - destruct e as [| |h'|]; cbn [is_final_of orb ev_handle] in *; try exact IH.
    now destruct (Nat.eqb_spec h' h).
Qed.

Definition good (ev : list bev) : Prop := forall h, phase_of h ev <> PBad.

Lemma good_tail {e ev} : good (e :: ev) -> good ev.
Proof.
  intros H h Hb. apply (H h). cbn [phase_of]. rewrite Hb. now destruct (_ =? _), e.
Qed.

Lemma good_head {e ev} : good (e :: ev) -> has_final (ev_handle e) ev = false.
Proof.
  intros H. destruct (has_final (ev_handle e) ev) eqn:E; [|reflexivity].
  destruct (H (ev_handle e)). rewrite phase_of_cons_same by reflexivity. now apply phase_step_closed, has_final_closed.
Qed.

Lemma good_ev_ok ev : good ev -> ev_ok ev = true.
Proof.
  induction ev as [|e ev IH]; [reflexivity|]. intros H. cbn [ev_ok]. rewrite (IH (good_tail H)), Bool.andb_true_r.
  pose proof (good_head H) as Hh. unfold has_final in Hh. destruct e; cbn [ev_handle] in Hh; now rewrite ?Hh.
Qed.

Lemma ev_ok_app {newer older} : ev_ok (newer ++ older) = true ->
  forall x, In x newer -> match x with EInline _ => True | _ => has_final (ev_handle x) older = false end.
Proof.
  induction newer as [|y newer IH]; [easy|]. cbn [app ev_ok]. intros [Hy Hr]%andb_true_iff x [->|Hx]; [|now apply IH].
  destruct x; trivial; apply negb_true_iff in Hy; rewrite existsb_app in Hy; apply orb_false_iff in Hy; apply Hy.
Qed.

Set Implicit Arguments.
(* walker and channel: the first t operations have been taken from the
   channel; the others are, in order, in the channel and with the walker *)
Record Sent (ops : list bop) (t next : nat) (fq : list (nat * bop)) (todo : list bop) : Prop := mkSent {
  s_next : next = t + length fq;
  s_ids : map fst fq = seq t (length fq);
  s_ops : map snd fq ++ todo = skipn t ops }.
Unset Implicit Arguments.

Lemma sent_init ops : Sent ops 0 0 [] ops.
Proof. now constructor. Qed.

Lemma sent_walk {ops t next fq o todo} : Sent ops t next fq (o :: todo) -> Sent ops t (S next) (fq ++ [(next, o)]) todo.
Proof.
  intros [Hn Hi Ho]. constructor; rewrite ?map_app, ?app_length, ?Nat.add_1_r.
  - lia.
  - now rewrite seq_S, Hi, Hn.
  - now rewrite <- app_assoc.
Qed.

Lemma sent_take {ops t next h o fq todo} : Sent ops t next ((h, o) :: fq) todo ->
  h = t /\ nth_error ops t = Some o /\ Sent ops (S t) next fq todo.
Proof.
  intros [Hn Hi Ho]. cbn in Hi, Ho. injection Hi as -> Hi. symmetry in Ho. apply skipn_cons_nth in Ho.
  destruct Ho as [Ho Hs]. repeat split; auto. cbn in Hn. lia.
Qed.

Lemma sent_ids {ops t next fq todo} : Sent ops t next fq todo -> forall h, In h (map fst fq) <-> t <= h < next.
Proof. intros [-> -> _] h. apply in_seq. Qed.

Lemma sent_final {ops t next} : Sent ops t next [] [] -> length ops <= t.
Proof. intros [_ _ H]. apply (f_equal (@length _)) in H. rewrite skipn_length in H. cbn in H. lia. Qed.

(* The system both drivers refine.  Its state: t operations have been taken, in
   order; the handles in `live` are open; ev is the history.  `Coupled` says
   that the automaton of every handle agrees with that; its transitions are
   coupled_open, coupled_inline, coupled_write and coupled_final.  A step of a
   driver is one of them, or coupled_write then coupled_final, or none. *)
Definition coupled (ops : list bop) (t h : nat) (live : Prop) (p : phase) : Prop :=
  match p with
  | PNone => t <= h /\ ~ live
  | POpen _ => h < t /\ live /\ exists js, nth_error ops h = Some (OCopy js)
  | PFinal _ => h < t /\ ~ live /\ exists js, nth_error ops h = Some (OCopy js)
  | PInline => h < t /\ ~ live /\ nth_error ops h = Some OInline
  | PBad => False
  end.

Definition Coupled (ops : list bop) (t : nat) (live : nat -> Prop) (ev : list bev) : Prop :=
  forall h, coupled ops t h (live h) (phase_of h ev).

Lemma coupled_other {ops t t' h live live' p} :
  coupled ops t h live p -> (live' <-> live) -> t' = t \/ t' = S t /\ h <> t -> coupled ops t' h live' p.
Proof. destruct p; cbn; firstorder lia. Qed.

Lemma coupled_next {ops t live p} : coupled ops t t live p -> p = PNone /\ ~ live.
Proof. destruct p; cbn; firstorder lia. Qed.

Lemma coupled_live {ops t h live p} : coupled ops t h live p -> live -> exists bs, p = POpen bs.
Proof. destruct p; cbn; firstorder eauto. Qed.

Lemma coupled_started {ops t h live p} : coupled ops t h live p -> p <> PNone -> h < t.
Proof. destruct p; cbn; firstorder. Qed.

Lemma coupled_closed {ops t h live p} : coupled ops t h live p -> closed p -> h < t /\ ~ live.
Proof. destruct p; cbn; firstorder. Qed.

Lemma coupled_good {ops t live ev} : Coupled ops t live ev -> good ev.
Proof. intros Hp h Hb. specialize (Hp h). now rewrite Hb in Hp. Qed.

Lemma coupled_init ops : Coupled ops 0 (fun _ => False) [].
Proof. intros h. cbn. split; [lia|tauto]. Qed.

Lemma coupled_open {ops t live live' ev js} : Coupled ops t live ev -> nth_error ops t = Some (OCopy js) ->
  (forall h, live' h <-> t = h \/ live h) -> Coupled ops (S t) live' (EOpen t :: ev).
Proof.
  intros Hp Hop Hl h. destruct (Nat.eq_dec t h) as [<-|Hne].
  - destruct (coupled_next (Hp t)) as [Hn _]. rewrite phase_of_cons_same, Hn by reflexivity. cbn. rewrite Hl. eauto 6.
  - rewrite phase_of_cons_other by exact Hne. apply (coupled_other (Hp h)); [rewrite Hl; firstorder|auto].
Qed.

Lemma coupled_inline {ops t live ev} : Coupled ops t live ev -> nth_error ops t = Some OInline ->
  Coupled ops (S t) live (EInline t :: ev).
Proof.
  intros Hp Hop h. destruct (Nat.eq_dec t h) as [<-|Hne].
  - destruct (coupled_next (Hp t)) as [Hn Hz]. rewrite phase_of_cons_same, Hn by reflexivity. cbn. auto.
  - rewrite phase_of_cons_other by exact Hne. apply (coupled_other (Hp h)); [reflexivity|auto].
Qed.

Lemma coupled_write {ops t live ev h} b : Coupled ops t live ev -> live h -> Coupled ops t live (EWrite h b :: ev).
Proof.
  intros Hp Hl x. destruct (Nat.eq_dec h x) as [<-|Hne]; [|now rewrite phase_of_cons_other].
  destruct (coupled_live (Hp h) Hl) as [bs Hph]. specialize (Hp h).
  rewrite phase_of_cons_same, Hph in * by reflexivity. exact Hp.
Qed.

Lemma coupled_final {ops t live live' ev h} : Coupled ops t live ev -> live h ->
  (forall x, live' x <-> live x /\ x <> h) -> Coupled ops t live' (EFinal h :: ev).
Proof.
  intros Hp Hl Hl' x. destruct (Nat.eq_dec h x) as [<-|Hne].
  - destruct (coupled_live (Hp h) Hl) as [bs Hph]. specialize (Hp h).
    rewrite phase_of_cons_same, Hph in * by reflexivity. cbn in *. rewrite Hl'. firstorder.
  - rewrite phase_of_cons_other by exact Hne. apply (coupled_other (Hp x)); [|now left].
    rewrite Hl'. firstorder congruence.
Qed.

Set Implicit Arguments.
(* v_join and v_done are the clauses i_join and i_done of Inv below, written as case distinctions on b_disp s: once
   a step has fixed the state of the dispatcher they compute, to True or to the clause that held before the step *)
Record BInv (W Q : nat) (ops : list bop) (t : nat) (s : bst) : Prop := mkBInv {
  v_sent : Sent ops t (b_next s) (b_fq s) (b_todo s);
  v_coupled : Coupled ops t (fun h => In h (b_open s)) (b_ev s);
  v_nodup : NoDup (b_open s);
  v_open : forall h, In h (b_open s) <-> 0 < refs s h;
  v_pq : length (b_pq s) <= Q;
  v_run : length (b_run s) <= W;
  v_wdone : b_wdone s = true -> b_todo s = [];
  v_join : match b_disp s with DJoin | DDone => b_fq s = [] /\ b_wdone s = true | _ => True end;
  v_done : match b_disp s with DDone => b_pq s = [] /\ b_run s = [] | _ => True end }.
Unset Implicit Arguments.

Lemma binv_init W Q ops : BInv W Q ops 0 (init ops).
Proof.
  constructor; cbn; trivial; try lia; [apply sent_init|apply coupled_init|constructor].
Qed.

Lemma binv_step {W Q ops t s l s'} : BInv W Q ops t s -> step W Q s l = Some s' -> exists t', BInv W Q ops t' s'.
Proof.
  intros [HS Hp Hnd Ho Hpq Hrun Hw Hj Hd] Hs. destruct s as [todo next wdone fq disp pq run open ev].
  (* the arms are taken one by one, not with split_step: most need the test that guards them under a name *)
  unfold step in Hs. st. destruct l as [| | |k].
  - destruct todo as [|o r].
    + destruct wdone; [discriminate|]. injection Hs as <-. exists t. constructor; st; trivial.
      destruct disp; trivial; now destruct Hj.
    + injection Hs as <-. exists t. constructor; st; trivial.
      * now apply sent_walk.
      * intros Hwd. discriminate (Hw Hwd).
      * destruct disp; trivial; destruct Hj as [_ Hwd]; discriminate (Hw Hwd).
  - destruct disp as [|h0 [|b rest]| |]; st.
    + destruct fq as [|[h0 [js|]] r].
      * destruct wdone; [|discriminate]. injection Hs as <-. exists t. constructor; st; trivial. now split.
      * (* the next operation is taken: a file is opened *)
        injection Hs as <-. destruct (sent_take HS) as (-> & Hop & HS').
        destruct (coupled_next (Hp t)) as [_ Hz].
        exists (S t). constructor; st; trivial.
        -- now apply (coupled_open Hp Hop).
        -- now constructor.
        -- intros h. cbn [In]. rewrite Ho in *. destruct (Nat.eqb_spec t h) as [<-|]; lia.
      * (* ... or done inline *)
        injection Hs as <-. destruct (sent_take HS) as (-> & Hop & HS').
        exists (S t). constructor; st; trivial. now apply coupled_inline.
    + (* the dispatcher drops its reference *)
      assert (In h0 open) as Hin by (apply Ho; rewrite Nat.eqb_refl; lia).
      destruct (Nat.eqb_spec (count_h h0 pq + count_h h0 run) 0) as [E0|E0]; injection Hs as <-; exists t;
        constructor; st; trivial.
      * exact (coupled_final Hp Hin (fun x => in_remove_h h0 x open)).
      * now apply nodup_remove_h.
      * intros h. rewrite in_remove_h, Ho. destruct (Nat.eqb_spec h0 h) as [<-|]; lia.
      * intros h. rewrite Ho. destruct (Nat.eqb_spec h0 h) as [<-|]; lia.
    + (* the dispatcher queues a job: one more reference *)
      destruct (Nat.ltb_spec (length pq) Q); [|discriminate]. injection Hs as <-. exists t.
      constructor; st; trivial.
      * intros h. rewrite Ho, count_h_app, count_h_cons. cbn. destruct (Nat.eqb_spec h0 h); lia.
      * rewrite app_length. cbn. lia.
    + destruct pq; [|discriminate]. destruct run; [|discriminate]. injection Hs as <-. exists t.
      constructor; st; trivial. now split.
    + discriminate.
  - destruct pq as [|j r]; [discriminate|]. destruct (Nat.ltb_spec (length run) W); [|discriminate].
    injection Hs as <-. exists t. constructor; st; trivial.
    + intros h. rewrite Ho, !count_h_cons. lia.
    + cbn in Hpq. lia.
    + destruct disp; trivial. now destruct Hd.
  - (* a job completes and drops its reference *)
    destruct (nth_error run k) as [[h0 b]|] eqn:En; [|discriminate].
    pose proof (fun h => count_h_remove_nth h En) as Hc.
    assert (length (remove_nth k run) <= W) as Hrun' by (pose proof (remove_nth_length En); lia).
    assert (In h0 open) as Hin by (apply Ho; specialize (Hc h0); rewrite Nat.eqb_refl in Hc; lia).
    assert (match disp with DDone => pq = [] /\ remove_nth k run = [] | _ => True end) as Hd'.
    { destruct disp; trivial. destruct Hd as [_ ->]. destruct k; discriminate En. }
    destruct (last_refP (count_h h0 pq + count_h h0 (remove_nth k run)) (disp_holds disp h0)) as [E0|E0];
      injection Hs as <-; exists t; constructor; st; trivial.
    + exact (coupled_final (coupled_write b Hp Hin) Hin (fun x => in_remove_h h0 x open)).
    + now apply nodup_remove_h.
    + intros h. rewrite in_remove_h, Ho, <- (Hc h). destruct (Nat.eqb_spec h0 h) as [<-|]; lia.
    + now apply coupled_write.
    + intros h. rewrite Ho, <- (Hc h). destruct (Nat.eqb_spec h0 h) as [<-|]; lia.
Qed.

Theorem binv_reachable W Q ops s : reachable W Q ops s -> exists t, BInv W Q ops t s.
Proof.
  induction 1 as [|s l s' _ [t IH] Hs]; [exists 0; apply binv_init|exact (binv_step IH Hs)].
Qed.

Theorem events_after_walk W Q ops s : reachable W Q ops s -> forall e, In e (b_ev s) -> ev_handle e < b_next s.
Proof.
  intros Hr e He. destruct (binv_reachable W Q ops s Hr) as [t HI].
  rewrite (s_next (v_sent HI)). apply Nat.lt_lt_add_r, (coupled_started (v_coupled HI (ev_handle e))).
  intros Hn. now apply (phase_none_no_events Hn e He).
Qed.

Definition fq_ids (s : bst) : list nat := map fst (b_fq s).

(* the invariant in the form the statements of no_deadlock, open_bound and final_state_closed take it: without the
   workload and the number of operations taken *)
Record Inv (W Q : nat) (s : bst) : Prop := mkInv {
  i_pq : length (b_pq s) <= Q;
  i_run : length (b_run s) <= W;
  i_nodup : NoDup (b_open s);
  i_open : forall h, In h (b_open s) <-> 0 < refs s h;
  i_fq_lt : forall h, In h (fq_ids s) -> h < b_next s;
  i_fq_nodup : NoDup (fq_ids s);
  i_live_fq : forall h, 0 < refs s h -> h < b_next s /\ ~ In h (fq_ids s);
  i_final : forall h, has_final h (b_ev s) = true -> refs s h = 0 /\ h < b_next s /\ ~ In h (fq_ids s);
  i_ev : ev_ok (b_ev s) = true;
  i_wdone : b_wdone s = true -> b_todo s = [];
  i_join : (b_disp s = DJoin \/ b_disp s = DDone) -> b_fq s = [] /\ b_wdone s = true;
  i_done : b_disp s = DDone -> b_pq s = [] /\ b_run s = []
}.

Lemma binv_inv {W Q ops t s} : BInv W Q ops t s -> Inv W Q s.
Proof.
  intros [HS Hp Hnd Ho Hpq Hrun Hw Hj Hd]. pose proof (sent_ids HS) as Hids. pose proof (s_next HS) as Hn.
  assert (forall h, h < t -> h < b_next s /\ ~ In h (fq_ids s)) as Htaken by (intros h Hh; unfold fq_ids; rewrite Hids; lia).
  constructor; trivial.
  - intros h Hh. apply Hids in Hh. apply Hh.
  - unfold fq_ids. rewrite (s_ids HS). apply seq_NoDup.
  - intros h Hh. apply Ho in Hh. destruct (coupled_live (Hp h) Hh) as [bs Hph]. apply Htaken.
    apply (coupled_started (Hp h)). rewrite Hph. discriminate.
  - intros h Hf. destruct (coupled_closed (Hp h) (has_final_closed Hf)) as [Hlt Hz].
    rewrite Ho in Hz. split; [lia|auto].
  - exact (good_ev_ok _ (coupled_good Hp)).
  - intros [E|E]; rewrite E in Hj; exact Hj.
  - intros E. rewrite E in Hd. exact Hd.
Qed.

Theorem inv_reachable W Q ops s : reachable W Q ops s -> Inv W Q s.
Proof. intros Hr. destruct (binv_reachable W Q ops s Hr) as [t HI]. exact (binv_inv HI). Qed.

Theorem finalise_after_last_write W Q ops s : reachable W Q ops s ->
  forall newer h older, b_ev s = newer ++ EFinal h :: older ->
  (forall b, ~ In (EWrite h b) newer) /\ ~ In (EOpen h) newer /\ ~ In (EFinal h) newer.
Proof.
  intros Hr newer h older Heq. pose proof (i_ev _ _ _ (inv_reachable W Q ops s Hr)) as Hok. rewrite Heq in Hok.
  pose proof (ev_ok_app Hok) as H. unfold has_final in H. cbn in H.
  repeat split; [intros b Hin|intros Hin|intros Hin]; apply H in Hin; cbn in Hin; now rewrite Nat.eqb_refl in Hin.
Qed.

(* C20.  An open handle is referenced, so it is among the handles of the queued jobs, of the running jobs and of
   the dispatcher: at most Q + W + 1, whatever the number of files *)
Definition holders (s : bst) : list nat :=
  map fst (b_pq s) ++ map fst (b_run s) ++ match b_disp s with DQueue h _ => [h] | _ => [] end.

Theorem open_bound W Q s : Inv W Q s -> length (b_open s) <= Q + W + 1.
Proof.
  intros HI. transitivity (length (holders s)).
  - apply NoDup_incl_length; [apply (i_nodup _ _ _ HI)|]. intros h Hin. apply (i_open _ _ _ HI) in Hin.
    unfold refs in Hin. unfold holders. rewrite !in_app_iff.
    destruct (count_h h (b_pq s)) eqn:E1; [|left; apply count_h_pos; lia].
    destruct (count_h h (b_run s)) eqn:E2; [|right; left; apply count_h_pos; lia].
    right; right. destruct (b_disp s); cbn in *; try lia. destruct (Nat.eqb_spec h0 h); [now left|lia].
  - unfold holders. rewrite !app_length, !map_length. pose proof (i_pq _ _ _ HI). pose proof (i_run _ _ _ HI).
    destruct (b_disp s); cbn; lia.
Qed.

Corollary reachable_open_bound W Q ops s : reachable W Q ops s -> length (b_open s) <= Q + W + 1.
Proof. intros H. eapply open_bound, inv_reachable, H. Qed.

Theorem no_deadlock W Q s : 1 <= W -> 1 <= Q -> Inv W Q s -> final s = false ->
  exists l s', step W Q s l = Some s'.
Proof.
  intros HW HQ HI Hf. pose proof (i_join _ _ _ HI) as Hj. clear HI.
  destruct s as [todo next wdone fq disp pq run open ev]. unfold final in Hf. st.
  destruct todo as [|o r]; [|exists LWalk; eexists; reflexivity].
  destruct wdone; [|exists LWalk; eexists; reflexivity].
  (* the walker is done: a running job can complete; else a queued job can be taken; else the dispatcher can move *)
  destruct run as [|[h b] run]; [|exists (LDone 0); cbn; destruct (_ && _); eexists; reflexivity].
  destruct pq as [|j pq]; [|exists LTake; destruct W; [lia|]; eexists; reflexivity].
  destruct disp as [|h [|b rest]| |]; [exists LDisp; cbn ..|].
  - destruct fq as [|[h [js|]] r]; eexists; reflexivity.
  - eexists; reflexivity.
  - destruct Q; [lia|]. eexists; reflexivity.
  - eexists; reflexivity.
  - destruct (Hj (or_intror eq_refl)) as [-> _]. discriminate.
Qed.

Theorem final_state_closed W Q s : Inv W Q s -> final s = true -> b_open s = [].
Proof.
  intros HI Hf. destruct (b_open s) as [|h r] eqn:E; [reflexivity|].
  assert (0 < refs s h) as Hr by (apply (i_open _ _ _ HI); rewrite E; now left).
  rewrite (final_refs s h Hf) in Hr. lia.
Qed.
