(* Translator tie (see ExtractedOk.v): the batching condition of ChannelUpdater::send. *)
From XcpModel Require Import Base Updater Extracted.

Theorem x_send_cond_ok : forall bs sent b,
  chan_send bs sent (UCopied b) = (sent + b, if x_send_cond sent b bs then [UCopied b] else []).
Proof. reflexivity. Qed.
