(* One regular file, per driver: which bytes the transfers of a successful, uncloned copy wrote and from where
   (`*_file_exact`), hence what the destination holds (`*_file_bytes`); the reflink decision table. *)
From XcpModel Require Import Base Extents Sparse Blocks CopyLoop FileCopy.
From XcpProofs Require Import BaseProofs ExtentsProofs BlocksProofs CopyLoopProofs.
From Coq Require Import Permutation.

Theorem parfile_file_exact fuel bs m len sparse clone L ans :
  layout_ok 0 len L ->
  let o := parfile_copy_file fuel bs m len sparse clone (k_seek_data L len) (k_seek_hole L len) ans in
  f_st o = StOk -> f_cloned o = false -> ans_bounded (f_trace o) ->
  forall i,
    (sparse = false -> (i < len -> src_of (f_trace o) i = Some i) /\ (len <= i -> src_of (f_trace o) i = None)) /\
    (sparse = true -> (in_data L i -> src_of (f_trace o) i = Some i) /\ (~ in_data L i -> src_of (f_trace o) i = None)).
Proof.
  intros HL. unfold parfile_copy_file.
  destruct (try_reflink m clone) as [iss [| |e]]; cbn [f_st f_cloned f_trace]; try discriminate.
  destruct sparse; cbn [f_st f_cloned f_trace]; intros Hst _ Hb i.
  - split; [discriminate|]. intros _.
    destruct (copy_sparse_spec fuel bs len L ans HL Hst Hb) as (A1 & A2). destruct (src_of_aligned i A1) as [S1 S2].
    split; intros H; [apply S1|apply S2]; now rewrite A2.
  - split; [|discriminate]. intros _.
    destruct (copy_bytes_exact (S (length ans)) bs len 0 0 ans (N.le_0_l _) Hst Hb) as (A1 & A2 & A3).
    destruct (src_of_aligned i A1) as [S1 S2].
    split; intros H; [apply S1|apply S2]; rewrite A3; lia.
Qed.

Lemma run_jobs_exact flen : forall jobs ans,
  let o := run_jobs flen jobs ans in
  o_st o = StOk -> ans_bounded (o_trace o) ->
  aligned (o_trace o) /\
  forall i, (covered_by (o_trace o) i -> Exists (fun j => fst j <= i < fst j + snd j) jobs) /\
            (Exists (fun j => fst j <= i < fst j + snd j) jobs -> i < flen -> covered_by (o_trace o) i).
Proof.
  induction jobs as [|[off bytes] js IH]; intros ans; cbn [run_jobs o_st o_trace].
  - intros _ _. split; [constructor|]. intros i. split; [intros []%covered_by_nil|intros []%Exists_nil].
  - set (j := block_job (S (length ans)) flen off bytes 0 ans). destruct (o_st j) eqn:Ej; try discriminate.
    intros Hst [Hb1 Hb2]%Forall_app.
    destruct (block_job_exact (S (length ans)) flen off bytes 0 ans (N.le_0_l _) Ej Hb1) as (J1 & J2).
    fold j in J1, J2. destruct (IH (o_rest j) Hst Hb2) as (R1 & R2).
    split; [apply aligned_app; now split|]. intros i. split.
    + intros [Hc|Hc]%covered_by_app; [left; apply J2 in Hc; cbn [fst snd]; lia|right; now apply R2].
    + intros [Hi|Hi]%Exists_cons Hlt; apply covered_by_app;
        [left; apply J2; cbn [fst snd] in Hi; lia|right; now apply R2].
Qed.

(* the jobs of a list of ranges tile the ranges *)
Lemma pb_jobs_cover bs ranges i : 0 < bs ->
  Exists (fun j => fst j <= i < fst j + snd j) (pb_jobs bs ranges) <-> in_ranges ranges i.
Proof.
  intros Hbs. unfold pb_jobs, in_ranges. split.
  - intros ([o n] & ([s e] & Hr & Hj)%in_flat_map & Hi)%Exists_exists. cbn [fst snd] in Hj, Hi.
    apply range_jobs_spec in Hj as (k & _ & -> & ->). apply blk_mem in Hi; [|assumption].
    exists s, e. split; [assumption|lia].
  - intros (s & e & Hr & Hi). destruct (blk_cover s (e - s) bs i Hbs ltac:(lia)) as (k & Hk & Hc).
    apply Exists_exists. exists (blk_off s bs k, blk_bytes (e - s) bs k). split; [|exact Hc].
    apply in_flat_map. exists (s, e). split; [assumption|]. apply range_jobs_spec. exists k. auto.
Qed.

(* Every byte of the file that lies in a queued range is written with the
   source byte of the same offset, nothing is written outside the queued
   ranges, and this holds for EVERY completion order of the block jobs. *)
Theorem parblock_file_exact bs m len sparse clone mx ans :
  0 < bs ->
  let o := parblock_copy_file bs m len sparse clone mx ans in
  f_st o = StOk -> f_cloned o = false -> ans_bounded (f_trace o) ->
  exists ranges, pb_ranges len sparse mx = (StOk, ranges) /\
  forall tr', Permutation (f_trace o) tr' ->
  forall i,
    (in_ranges ranges i -> i < len -> src_of tr' i = Some i) /\
    (~ in_ranges ranges i -> src_of tr' i = None).
Proof.
  intros Hbs. unfold parblock_copy_file.
  destruct (try_reflink m clone) as [iss [| |e]]; cbn [f_st f_cloned f_trace]; try discriminate.
  destruct (pb_ranges len sparse mx) as [[| | |] ranges] eqn:Er; cbn [f_st f_cloned f_trace]; try discriminate.
  intros Hst _ Hb. exists ranges. split; [reflexivity|].
  destruct (run_jobs_exact len (pb_jobs bs ranges) ans Hst Hb) as (A1 & A2).
  intros tr' Hperm i. rewrite <- (src_of_perm i A1 Hperm).
  destruct (src_of_aligned i A1) as [S1 S2]. split.
  - intros Hr Hlt. apply S1, A2; [now apply pb_jobs_cover|exact Hlt].
  - intros Hn. apply S2. intros Hc. apply Hn, (pb_jobs_cover bs ranges i Hbs), A2, Hc.
Qed.

(* whole-file case: not sparse, or FIEMAP unsupported *)
Lemma pb_ranges_whole {len sparse mx ranges} :
  pb_ranges len sparse mx = (StOk, ranges) -> (sparse = false \/ mx = MxNone) ->
  ranges = [(0, len)].
Proof.
  unfold pb_ranges. intros H [->| ->]; [now injection H|].
  destruct sparse; now injection H.
Qed.

Lemma in_ranges_exts l i : in_ranges (map (fun e => (e_start e, e_end e)) l) i <-> covered l i.
Proof. unfold in_ranges, covered. now rewrite ex_in_pair, Exists_map, Exists_exists. Qed.

(* sparse case: the queued ranges are the merged extents, so they contain every extent byte ... *)
Lemma pb_ranges_extents {len l ranges i} :
  pb_ranges len true (MxSome l) = (StOk, ranges) -> Forall ext_wf l -> covered l i ->
  in_ranges ranges i.
Proof. intros H Hwf Hc. injection H as <-. apply in_ranges_exts. now apply merge_covers. Qed.

(* ... and nothing but extent bytes and one-byte adjacency gaps *)
Lemma pb_ranges_extents_only {len l ranges i} :
  pb_ranges len true (MxSome l) = (StOk, ranges) -> in_ranges ranges i ->
  covered l i \/ In i (gap_bytes l).
Proof. intros H Hin. injection H as <-. apply merge_adds_only_gaps. now apply in_ranges_exts. Qed.

(* CopyHandle::new leaves a destination of the source's length that reads zero everywhere, whatever it held *)
Lemma handle_new_dest_fresh old len i :
  fc_len (handle_new_dest old len) = len /\ fc_byte (handle_new_dest old len) i = 0.
Proof. split; [reflexivity|]. cbn. now destruct (i <? N.min 0 len). Qed.

(* so a byte that no transfer wrote is zero; transfers overwrite; a hole of the source reads as zero *)
Definition dst_byte (tr : xtrace) (src : N -> N) (i : N) : N :=
  match src_of tr i with Some s => src s | None => 0 end.

Lemma dst_byte_exact {tr src i} (P : Prop) :
  (P -> src_of tr i = Some i) -> (~ P -> src_of tr i = None) -> (~ P -> src i = 0) ->
  dst_byte tr src i = src i.
Proof.
  intros H1 H2 Hz. unfold dst_byte. destruct (src_of tr i) as [s|] eqn:E.
  - destruct (N.eq_dec s i) as [->|Hne]; [reflexivity|].
    assert (~ P) as Hn by (intros p; apply H1 in p; congruence). apply H2 in Hn. discriminate.
  - symmetry. apply Hz. intros p. apply H1 in p. discriminate.
Qed.

Corollary parfile_file_bytes fuel bs m len sparse clone L ans src :
  layout_ok 0 len L -> (forall i, i < len -> ~ in_data L i -> src i = 0) ->
  let o := parfile_copy_file fuel bs m len sparse clone (k_seek_data L len) (k_seek_hole L len) ans in
  f_st o = StOk -> f_cloned o = false -> ans_bounded (f_trace o) ->
  forall i, i < len -> dst_byte (f_trace o) src i = src i.
Proof.
  intros HL Hz o Hst Hc Hb i Hi.
  destruct (parfile_file_exact fuel bs m len sparse clone L ans HL Hst Hc Hb i) as [Hd Hs]. fold o in Hd, Hs.
  destruct sparse.
  - destruct (Hs eq_refl) as [S1 S2]. apply (dst_byte_exact (in_data L i)); auto.
  - destruct (Hd eq_refl) as [S1 S2]. apply (dst_byte_exact (i < len)); auto. intros Hn. apply S2. lia.
Qed.

Corollary parblock_file_bytes bs m len sparse clone mx ans src :
  0 < bs ->
  (* what the source looks like outside the ranges that will be queued *)
  (sparse = false \/ mx = MxNone \/
   exists l, mx = MxSome l /\ Forall ext_wf l /\ forall i, i < len -> ~ covered l i -> src i = 0) ->
  let o := parblock_copy_file bs m len sparse clone mx ans in
  f_st o = StOk -> f_cloned o = false -> ans_bounded (f_trace o) ->
  forall tr', Permutation (f_trace o) tr' ->
  forall i, i < len -> dst_byte tr' src i = src i.
Proof.
  intros Hbs Hsrc o Hst Hcl Hb tr' Hperm i Hi.
  destruct (parblock_file_exact bs m len sparse clone mx ans Hbs Hst Hcl Hb) as (ranges & Hr & Hx).
  destruct (Hx tr' Hperm i) as [X1 X2].
  apply (dst_byte_exact (in_ranges ranges i)); [auto|exact X2|]. intros Hn.
  assert (~ (sparse = false \/ mx = MxNone)) as Hw.
  { intros H. rewrite (pb_ranges_whole Hr H) in Hn. apply Hn. exists 0, len. split; [now left|lia]. }
  destruct Hsrc as [Hs|[Hs|(l & -> & Hwf & Hz)]]; [contradict Hw; auto..|]. destruct sparse; [|contradict Hw; auto].
  apply Hz; [exact Hi|]. intros Hc. exact (Hn (pb_ranges_extents Hr Hwf Hc)).
Qed.

(* C15: the decision table of try_reflink *)
Lemma never_no_clone a : fst (try_reflink RfNever a) = false /\ snd (try_reflink RfNever a) = RlCopy.
Proof. split; reflexivity. Qed.

Lemma always_ok_iff_cloned a : snd (try_reflink RfAlways a) = RlCloned <-> a = ClOk.
Proof. destruct a; cbn; split; congruence. Qed.

Lemma always_never_copies a : snd (try_reflink RfAlways a) <> RlCopy.
Proof. destruct a; cbn; discriminate. Qed.

Lemma auto_falls_back a : snd (try_reflink RfAuto a) = RlCopy <-> a = ClUnsup.
Proof. destruct a; cbn; split; congruence. Qed.

Lemma auto_always_issue m a : m <> RfNever -> fst (try_reflink m a) = true.
Proof. destruct m; [reflexivity|reflexivity|congruence]. Qed.

Lemma classify_clone_unsup e :
  classify_clone e = ClUnsup <-> e = EOPNOTSUPP \/ e = EINVAL \/ e = EXDEV \/ e = ETXTBSY.
Proof.
  unfold classify_clone.
  destruct (N.eqb_spec e 0) as [->|_]; [split; [discriminate|intros [H|[H|[H|H]]]; discriminate H]|].
  rewrite <- !N.eqb_eq, <- !orb_true_iff, !orb_assoc. destruct (_ || _); now split.
Qed.
