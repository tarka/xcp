(* The user-space fall-backs of Uspace.v, treated like the kernel-copy loops of CopyLoopProofs: one graph per loop, and
   the bytes a trace moved (`moves`, an xtrace) are `contiguous`, so that exactness follows the same way (`in_graph` is
   CopyLoopProofs' tactic for the leaves of the *_run lemmas). *)
From XcpModel Require Import Base CopyLoop Uspace.
From XcpProofs Require Import CopyLoopProofs.

Lemma moves_app t1 t2 : moves (t1 ++ t2) = moves t1 ++ moves t2.
Proof. apply flat_map_app. Qed.

Lemma uans_bounded_app t1 t2 : uans_bounded (t1 ++ t2) <-> uans_bounded t1 /\ uans_bounded t2.
Proof. apply Forall_app. Qed.

Lemma uans_bounded_read o q k t : uans_bounded ((URead o q, XOk k) :: t) <-> k <= q /\ uans_bounded t.
Proof. apply Forall_cons_iff. Qed.

(* As cb_run: full iterations, then at most one that stopped after its read or after its write.  In the three graphs of
   this file an iteration that goes on puts its calls in front of the rest with u_app, so that every fact about traces
   is proved by distributing over ++ and computing on the calls of one iteration. *)
Inductive cr_run nbytes off : N -> u_out -> Prop :=
| cr_done w r : nbytes <= w -> cr_run nbytes off w (mkU StOk w [] r)
| cr_halt w st r : st <> StOk -> cr_run nbytes off w (mkU st w [] r)
| cr_rstop w a st r : w < nbytes -> st <> StOk ->
    cr_run nbytes off w (mkU st w [(URead (off + w) (nbytes - w), a)] r)
| cr_wstop w rlen a st r : w < nbytes -> st <> StOk ->
    cr_run nbytes off w (mkU st w [(URead (off + w) (nbytes - w), XOk rlen); (UWrite (off + w) (off + w) rlen, a)] r)
| cr_go w rlen wlen o : w < nbytes -> rlen <> 0 -> rlen <= wlen -> cr_run nbytes off (w + rlen) o ->
    cr_run nbytes off w
           (u_app [(URead (off + w) (nbytes - w), XOk rlen); (UWrite (off + w) (off + w) rlen, XOk wlen)] o).

Lemma copy_range_uspace_run nbytes off fuel : forall w ans, cr_run nbytes off w (copy_range_uspace fuel nbytes off w ans).
Proof.
  induction fuel as [|f IH]; intros w ans; cbn [copy_range_uspace]; destruct (N.leb_spec nbytes w).
  1-3: in_graph.
  destruct ans as [|[rlen|e] rest]; [in_graph| |in_graph].
  destruct (N.eqb_spec rlen 0) as [->|Hr]; [in_graph|].
  destruct rest as [|[wlen|e] rest]; [in_graph| |in_graph].
  destruct (N.ltb_spec wlen rlen); [in_graph|]. apply cr_go; auto.
Qed.

(* what the loop moved, whatever its outcome: back to back from off + w; never beyond the range when no read returns
   more than was asked (a short write has moved part of what was read when it is reported); on success all of it *)
Lemma copy_range_uspace_moves fuel nbytes off w ans :
  let o := copy_range_uspace fuel nbytes off w ans in
  contiguous (off + w) (moves (u_trace o)) /\
  (w <= nbytes -> uans_bounded (u_trace o) -> w + total_moved (moves (u_trace o)) <= nbytes) /\
  (u_st o = StOk -> u_ret o = w + total_moved (moves (u_trace o)) /\ nbytes <= u_ret o).
Proof.
  cbv zeta.
  induction (copy_range_uspace_run nbytes off fuel w ans)
    as [| | |w rlen [k|e] st r Hlt Hst'|w rlen wlen o Hlt Hr Hw _ (IH1 & IH2 & IH3)]; cbn [u_st u_ret u_trace u_app];
    rewrite ?moves_app, ?total_moved_app;
    cbn [moves flat_map app contiguous total_moved map sumN fst snd r_src r_dst moved]; rewrite ?N.add_0_r;
    (split; [|split; [intros Hle Hb|intros Hst]]); try contradiction; auto.
  - (* a write that failed stays within what was read *) apply uans_bounded_read in Hb. lia.
  - (* a full write moved all of rlen: the rest starts at off + (w + rlen) *)
    rewrite N.min_r, <- N.add_assoc by assumption. auto.
  - (* cr_go, the bound: from the rest of the run *)
    apply uans_bounded_read in Hb. destruct Hb as [Hk Hb]. apply Forall_inv_tail in Hb. specialize (IH2 ltac:(lia) Hb). lia.
  - (* cr_go, on success *) specialize (IH3 Hst). lia.
Qed.

Inductive wa_run : N -> N -> N -> u_out -> Prop :=
| wa_done src wpos r : wa_run src wpos 0 (mkU StOk 0 [] r)
| wa_halt src wpos n st r : st <> StOk -> wa_run src wpos n (mkU st 0 [] r)
| wa_stop src wpos n a st r : n <> 0 -> st <> StOk -> wa_run src wpos n (mkU st 0 [(UWrite src wpos n, a)] r)
| wa_eintr src wpos n o : n <> 0 -> wa_run src wpos n o ->
    wa_run src wpos n (u_app [(UWrite src wpos n, XErr EINTR)] o)
| wa_go src wpos n k o : n <> 0 -> k <> 0 -> wa_run (src + N.min k n) (wpos + N.min k n) (n - k) o ->
    wa_run src wpos n (u_app [(UWrite src wpos n, XOk k)] o).

Lemma write_all_run fuel : forall src wpos n ans, wa_run src wpos n (write_all fuel src wpos n ans).
Proof.
  induction fuel as [|f IH]; intros src wpos n ans; cbn [write_all]; destruct (N.eqb_spec n 0) as [->|Hn].
  1-3: in_graph.
  destruct ans as [|[k|e] rest]; [in_graph| |].
  - destruct (N.eqb_spec k 0) as [->|Hk]; [in_graph|]. apply wa_go; auto.
  - destruct (N.eqb_spec e EINTR) as [->|He]; [apply wa_eintr; auto|in_graph].
Qed.

(* write_all moves the whole buffer or fails.  No contract on the answers is needed: a count above what was asked
   is clamped by `moves` and leaves nothing to write.  The facts about write_all are stated of wa_run, since cu_run
   holds an arbitrary element of it. *)
Lemma wa_moves {src wpos n o} : wa_run src wpos n o -> src = wpos ->
  contiguous wpos (moves (u_trace o)) /\ total_moved (moves (u_trace o)) <= n /\
  (u_st o = StOk -> total_moved (moves (u_trace o)) = n).
Proof.
  induction 1 as [| |src wpos n [k|e] st r Hn Hst'|src wpos n o Hn _ IH|src wpos n k o Hn Hk _ IH];
    cbn [u_st u_trace u_app]; intros ->; rewrite ?moves_app, ?total_moved_app;
    cbn [moves flat_map app contiguous total_moved map sumN fst snd r_src r_dst moved];
    try (destruct (IH eq_refl) as (IH1 & IH2 & IH3));
    (split; [|split; [|intros Hst]]); try contradiction; auto; try lia.
  (* wa_go, on success: the rest of the buffer was written in full *)
  specialize (IH3 Hst). lia.
Qed.

Inductive cu_run nbytes : N -> N -> N -> u_out -> Prop :=
| cu_done rpos wpos w r : nbytes <= w -> cu_run nbytes rpos wpos w (mkU StOk w [] r)
| cu_halt rpos wpos w st r : st <> StOk -> cu_run nbytes rpos wpos w (mkU st w [] r)
| cu_rstop rpos wpos w a st r : w < nbytes -> st <> StOk ->
    cu_run nbytes rpos wpos w (mkU st w [(URead rpos (nbytes - w), a)] r)
| cu_eintr rpos wpos w o : w < nbytes -> cu_run nbytes rpos wpos w o ->
    cu_run nbytes rpos wpos w (u_app [(URead rpos (nbytes - w), XErr EINTR)] o)
| cu_wstop rpos wpos w len wa st r : w < nbytes -> wa_run rpos wpos len wa -> st <> StOk ->
    cu_run nbytes rpos wpos w (mkU st w ([(URead rpos (nbytes - w), XOk len)] ++ u_trace wa) r)
| cu_go rpos wpos w len wa o : w < nbytes -> len <> 0 -> wa_run rpos wpos len wa -> u_st wa = StOk ->
    cu_run nbytes (rpos + len) (wpos + len) (w + len) o ->
    cu_run nbytes rpos wpos w (u_app ([(URead rpos (nbytes - w), XOk len)] ++ u_trace wa) o).

Lemma copy_bytes_uspace_run nbytes fuel : forall rpos wpos w ans,
  cu_run nbytes rpos wpos w (copy_bytes_uspace fuel nbytes rpos wpos w ans).
Proof.
  induction fuel as [|f IH]; intros rpos wpos w ans; cbn [copy_bytes_uspace]; destruct (N.leb_spec nbytes w).
  1-3: in_graph.
  destruct ans as [|[len|e] rest]; [in_graph| |].
  - destruct (N.eqb_spec len 0) as [->|Hl]; [in_graph|].
    pose proof (write_all_run (S (length rest)) rpos wpos len rest) as Hwa.
    destruct (u_st (write_all (S (length rest)) rpos wpos len rest)) eqn:Ew;
      [apply cu_go; auto|apply cu_wstop; (assumption || discriminate)..].
  - destruct (N.eqb_spec e EINTR) as [->|He]; [apply cu_eintr; auto|in_graph].
Qed.

Lemma copy_bytes_uspace_moves fuel nbytes rpos wpos w ans : rpos = wpos ->
  let o := copy_bytes_uspace fuel nbytes rpos wpos w ans in
  contiguous wpos (moves (u_trace o)) /\
  (w <= nbytes -> uans_bounded (u_trace o) -> w + total_moved (moves (u_trace o)) <= nbytes) /\
  (u_st o = StOk -> u_ret o = w + total_moved (moves (u_trace o)) /\ nbytes <= u_ret o).
Proof.
  cbv zeta.
  induction (copy_bytes_uspace_run nbytes fuel rpos wpos w ans)
    as [| | |rpos wpos w o Hlt _ IH|rpos wpos w len wa st r Hlt Hwa Hst'|rpos wpos w len wa o Hlt Hl Hwa Hok _ IH];
    cbn [u_st u_ret u_trace u_app]; intros ->; rewrite ?moves_app, ?total_moved_app;
    cbn [moves flat_map app contiguous total_moved map sumN]; rewrite ?N.add_0_r;
    try (destruct (IH eq_refl) as (IH1 & IH2 & IH3)); try (destruct (wa_moves Hwa eq_refl) as (W1 & W2 & W3));
    (split; [|split; [intros Hle Hb|intros Hst]]); try contradiction; auto.
  - (* cu_eintr: the retried read moved nothing *) exact (IH2 Hle (Forall_inv_tail Hb)).
  - (* a failed write_all stays within what was read *) apply uans_bounded_read in Hb. lia.
  - (* a successful one moved all of len: the rest starts at wpos + len *)
    apply contiguous_app; [assumption|]. now rewrite (W3 Hok).
  - (* cu_go, the bound *) apply uans_bounded_read in Hb. destruct Hb as [Hk Hb]. apply uans_bounded_app in Hb.
    specialize (W3 Hok). specialize (IH2 ltac:(lia) (proj2 Hb)). lia.
  - (* cu_go, on success *) specialize (W3 Hok). specialize (IH3 Hst). lia.
Qed.

(* C05: the three parts of a *_moves lemma at written = 0 say, of a successful run on bounded answers, that exactly the
   nbytes bytes from cur on were moved *)
Lemma moves_exact {cur nbytes} {o : u_out} :
  contiguous cur (moves (u_trace o)) /\
  (0 <= nbytes -> uans_bounded (u_trace o) -> 0 + total_moved (moves (u_trace o)) <= nbytes) /\
  (u_st o = StOk -> u_ret o = 0 + total_moved (moves (u_trace o)) /\ nbytes <= u_ret o) ->
  u_st o = StOk -> uans_bounded (u_trace o) ->
  u_ret o = nbytes /\ aligned (moves (u_trace o)) /\
  forall i, covered_by (moves (u_trace o)) i <-> cur <= i < cur + nbytes.
Proof.
  intros (Hc & Hle & Hok) Hst Hb. specialize (Hle (N.le_0_l _) Hb). destruct (Hok Hst) as [Hr Hge].
  split; [lia|]. destruct (contiguous_exact Hc) as [Ha Hi]. split; [exact Ha|]. intros i. rewrite Hi. lia.
Qed.

(* fuel: one answer is consumed per system call, so fuel > #answers suffices *)
Lemma copy_range_uspace_fuel fuel : forall nbytes off w ans,
  (length ans < fuel)%nat -> u_st (copy_range_uspace fuel nbytes off w ans) <> StOutOfFuel.
Proof.
  induction fuel as [|f IH]; intros nbytes off w ans Hf; [lia|]. cbn [copy_range_uspace].
  destruct (nbytes <=? w); [discriminate|]. destruct ans as [|[rlen|e] rest]; [discriminate| |discriminate].
  destruct (rlen =? 0); [discriminate|]. destruct rest as [|[wlen|e] rest]; [discriminate| |discriminate].
  destruct (wlen <? rlen); [discriminate|]. apply IH. cbn [length] in Hf. lia.
Qed.

(* C07: every iteration moves at least one byte (a zero-byte read is an error), so the loop issues at most two calls
   per outstanding byte, for any answers and any fuel *)
Lemma copy_range_uspace_steps fuel nbytes off w ans :
  N.of_nat (length (u_trace (copy_range_uspace fuel nbytes off w ans))) <= 2 * (nbytes - w).
Proof.
  induction (copy_range_uspace_run nbytes off fuel w ans); cbn [u_trace u_app length app]; lia.
Qed.

(* the same loop WITHOUT the zero-byte arm (a tempting simplification) spins: kept as the reason the arm matters *)
Fixpoint copy_range_uspace_noguard (fuel : nat) (nbytes off written : N) (ans : list xans) : status :=
  if nbytes <=? written then StOk else
  match fuel with
  | O => StOutOfFuel
  | S f =>
      match ans with
      | XOk rlen :: XOk wlen :: rest' =>
          if wlen <? rlen then StErr EWRITESHORT else copy_range_uspace_noguard f nbytes off (written + rlen) rest'
      | _ => StStuck
      end
  end.
Lemma copy_range_uspace_noguard_spins : forall fuel,
  copy_range_uspace_noguard fuel 1 0 0 (repeat (XOk 0) (2 * fuel)) = StOutOfFuel.
Proof.
  induction fuel as [|f IH]; [reflexivity|].
  replace (2 * S f)%nat with (S (S (2 * f))) by lia. exact IH.
Qed.

(* C07, for the loops that retry on EINTR: the calls counted are those that were not interrupted *)
Definition is_eintr (e : ucall * xans) : bool := match snd e with XErr n => n =? EINTR | _ => false end.
Definition effective (t : utrace) : utrace := filter (fun e => negb (is_eintr e)) t.

Lemma effective_app t1 t2 : effective (t1 ++ t2) = effective t1 ++ effective t2.
Proof. apply filter_app. Qed.

Lemma effective_cons e t : effective (e :: t) = if is_eintr e then effective t else e :: effective t.
Proof. unfold effective. cbn [filter]. now destruct (is_eintr e). Qed.

Lemma is_eintr_err c e : is_eintr (c, XErr e) = (e =? EINTR).
Proof. reflexivity. Qed.

Lemma wa_steps src wpos n o : wa_run src wpos n o -> N.of_nat (length (effective (u_trace o))) <= n.
Proof.
  induction 1 as [| |? ? ? [k|e]| |]; cbn [u_trace u_app app];
    rewrite ?effective_cons, ?is_eintr_err, ?N.eqb_refl; try (cbn; lia).
  destruct (e =? EINTR); cbn; lia.
Qed.

(* EINTR retries are not bounded (std repeats them without bound, like every cp); of the other calls there are at most
   two per outstanding byte when no read returns more than was asked *)
Lemma copy_bytes_uspace_steps fuel nbytes rpos wpos w ans :
  uans_bounded (u_trace (copy_bytes_uspace fuel nbytes rpos wpos w ans)) ->
  N.of_nat (length (effective (u_trace (copy_bytes_uspace fuel nbytes rpos wpos w ans)))) <= 2 * (nbytes - w).
Proof.
  induction (copy_bytes_uspace_run nbytes fuel rpos wpos w ans)
    as [| |? ? ? [k|e]|? ? ? ? ? ? IH|? ? ? ? wa ? ? ? Hwa|? ? ? ? wa ? ? ? Hwa ? ? IH];
    cbn [u_trace u_app app]; intros Hb; rewrite ?effective_cons, ?effective_app, ?is_eintr_err, ?N.eqb_refl;
    try (cbn; lia).
  - destruct (e =? EINTR); cbn; lia.
  - exact (IH (Forall_inv_tail Hb)).
  - apply uans_bounded_read in Hb. apply wa_steps in Hwa. cbn [is_eintr snd length]. lia.
  - apply uans_bounded_read in Hb. destruct Hb as [Hk Hb]. apply uans_bounded_app, proj2, IH in Hb. apply wa_steps in Hwa.
    cbn [is_eintr snd length]. rewrite app_length. lia.
Qed.

(* C04: the buffer of nbytes bytes holds every read, so no slice `buf[..next]` is out of range and the fall-back cannot
   panic inside a pool job *)
Definition reads_fit (cap : N) (t : utrace) : Prop :=
  Forall (fun e => match fst e with URead _ n => n <= cap | UWrite _ _ _ => True end) t.

Lemma reads_fit_mono cap cap' t : cap <= cap' -> reads_fit cap t -> reads_fit cap' t.
Proof. intros Hc. apply Forall_impl. intros [[o n|s o n] a]; cbn; [lia|trivial]. Qed.

Lemma copy_range_uspace_reads_fit fuel nbytes off w ans :
  reads_fit nbytes (u_trace (copy_range_uspace fuel nbytes off w ans)).
Proof.
  induction (copy_range_uspace_run nbytes off fuel w ans); cbn [u_trace u_app app];
    repeat (constructor; [first [apply N.le_sub_l|exact I]|]); (assumption || constructor).
Qed.

Lemma wa_reads_fit cap src wpos n o : wa_run src wpos n o -> reads_fit cap (u_trace o).
Proof.
  induction 1; cbn [u_trace u_app app]; repeat (constructor; [exact I|]); (assumption || constructor).
Qed.

Lemma copy_bytes_uspace_reads_fit fuel nbytes rpos wpos w ans :
  reads_fit nbytes (u_trace (copy_bytes_uspace fuel nbytes rpos wpos w ans)).
Proof.
  induction (copy_bytes_uspace_run nbytes fuel rpos wpos w ans); cbn [u_trace u_app app];
    repeat (constructor; [apply N.le_sub_l|]); repeat (apply Forall_app; split);
    (assumption || constructor || eapply wa_reads_fit; eassumption).
Qed.

(* what is written from the buffer (`buf[..rlen]`, rlen being what the read returned) fits too, as long as no read
   returns more than was asked *)
Definition writes_fit (cap : N) (t : utrace) : Prop :=
  Forall (fun e => match fst e with UWrite _ _ n => n <= cap | URead _ _ => True end) t.

Lemma writes_fit_mono cap cap' t : cap <= cap' -> writes_fit cap t -> writes_fit cap' t.
Proof. intros Hc. apply Forall_impl. intros [[o n|s o n] a]; cbn; [trivial|lia]. Qed.

Lemma copy_range_uspace_writes_fit fuel nbytes off w ans :
  uans_bounded (u_trace (copy_range_uspace fuel nbytes off w ans)) ->
  writes_fit nbytes (u_trace (copy_range_uspace fuel nbytes off w ans)).
Proof.
  induction (copy_range_uspace_run nbytes off fuel w ans) as [| | | |? ? ? ? ? ? ? ? IH];
    cbn [u_trace u_app app]; intros Hb;
    try (apply uans_bounded_read in Hb; destruct Hb as [Hk Hb]);
    repeat (constructor; [cbn; (lia || trivial)|]); try constructor.
  exact (IH (Forall_inv_tail Hb)).
Qed.
