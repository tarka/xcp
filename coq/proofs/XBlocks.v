(* Translator tie (see ExtractedOk.v): parblock::queue_file_range (block count, size and offset of block k; the block job), the
   pool's queue bound. *)
From XcpModel Require Import Base Blocks CopyLoop Extracted.

Theorem x_qfr_blocks_ok : forall s e bs, x_qfr_blocks s e bs = nblocks (e - s) bs.
Proof. reflexivity. Qed.
Theorem x_qfr_bytes_ok : forall s e bs k, x_qfr_bytes s e bs k = blk_bytes (e - s) bs k.
Proof. reflexivity. Qed.
Theorem x_qfr_off_ok : forall s e bs k, x_qfr_off s e bs k = blk_off s bs k.
Proof. reflexivity. Qed.
Theorem x_qfr_jobs_ok : forall s e bs,
  range_jobs s (e - s) bs =
  map (fun k => (x_qfr_off s e bs (N.of_nat k), x_qfr_bytes s e bs (N.of_nat k))) (seq 0 (N.to_nat (x_qfr_blocks s e bs))).
Proof. reflexivity. Qed.

(* the Q of the C20 bound *)
Theorem x_pool_queue_len_ok : x_pool_queue_len = 128.
Proof. reflexivity. Qed.

(* one unfolding of CopyLoop.block_job in terms of the extracted expressions *)
Theorem x_block_job_ok : forall f flen off bytes done k rest,
  block_job (S f) flen off bytes done (XOk k :: rest) =
  let req := mkReq (x_block_job_offset off done) (x_block_job_offset off done) (x_block_job_request bytes done) in
  if k =? 0 then mkOut (if x_block_job_zero_is_end flen off done then StOk else StErr EPREMATURE) [(req, XOk 0)] rest
  else if x_block_job_complete (done + k) bytes then mkOut StOk [(req, XOk k)] rest
  else out_cons (req, XOk k) (block_job f flen off bytes (done + k) rest).
Proof. reflexivity. Qed.
