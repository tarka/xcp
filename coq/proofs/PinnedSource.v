(* PinnedSource.v — written by harness/repin.py, never by a check.
   The bodies (normalised text, logging dropped) of the glue functions that the hand-written models mirror, as they
   were when those models were last validated.  `pin_unchanged name` (one theorem per function, in pins/) compares them with what the translator extracts
   from the repository NOW: an edit of any of these functions re-opens the obligation, and the correspondence run of
   the property then looks for a failing input. *)
From XcpModel Require Import Base Extracted.
From Coq Require Import String.
Local Open Scope string_scope.

Definition pinned_source : list (string * string) :=
  [("libfs/src/common.rs::allocate_file", "Ok(ftruncate(fd,len)?)");
   ("libfs/src/common.rs::copy_owner", "letinmeta=infd.metadata()?;fchown(outfd,Some(inmeta.uid()),Some(inmeta.gid()))?;Ok(())");
   ("libfs/src/common.rs::copy_timestamps", "letinmeta=infd.metadata()?;letftime=FileTimes::new().set_accessed(inmeta.accessed()?).set_modified(inmeta.modified()?);outfd.set_times(ftime)?;Ok(())");
   ("libfs/src/common.rs::copy_permissions", "letxr=copy_xattr(infd,outfd);ifletErr(e)=xr{}letinmeta=infd.metadata()?;outfd.set_permissions(inmeta.permissions())?;Ok(())");
   ("libfs/src/common.rs::sync", "Ok(fsync(fd)?)");
   ("libfs/src/common.rs::is_same_file", "letsstat=src.metadata()?;letdstat=dest.metadata()?;letsame=(sstat.ino()==dstat.ino())&&(sstat.dev()==dstat.dev());Ok(same)");
   ("libxcp/src/paths.rs::parse_ignore", "letgitignore=ifconfig.gitignore{letgifile=source.join("".gitignore"");letmutbuilder=GitignoreBuilder::new(source);ifgifile.is_file(){builder.add(&gifile);}letignore=builder.build()?;Some(ignore)}else{None};Ok(gitignore)");
   ("libxcp/src/paths.rs::ignore_filter", "matchignore{None=>true,Some(gi)=>{ifentry.depth()==0{returntrue;}letm=gi.matched(entry.path(),entry.file_type().is_dir());!m.is_ignore()}}");
   ("libxcp/src/backup.rs::get_backup_path", "letnum=next_backup_num(file)?;letsuffix=format!("".~{}~"",num);letmutbstr=file.to_path_buf().into_os_string();bstr.push(suffix);letbackup=PathBuf::from(bstr);Ok(backup)");
   ("libxcp/src/backup.rs::has_backup", "letfname=filename(file)?;letentries=ls_file_dir(file)?.collect::<std::io::Result<Vec<_>>>()?;letexists=entries.iter().any(|de|is_num_backup(fname,&de.path()).is_some());Ok(exists)");
   ("libxcp/src/backup.rs::is_num_backup", "ifcandidate.file_stem()?!=base_file.as_ref(){returnNone}letext=candidate.extension()?.to_str()?;letnum=get_regex().captures(ext)?.get(1)?.as_str().parse::<u64>().ok()?;Some(num)");
   ("libxcp/src/operations.rs::finalise_copy", "ifself.config.ownership&&copy_owner(&self.infd,&self.outfd).is_err(){}if!self.config.no_perms{copy_permissions(&self.infd,&self.outfd)?;}if!self.config.no_timestamps{copy_timestamps(&self.infd,&self.outfd)?;}ifself.config.fsync{sync(&self.outfd)?;}Ok(())");
   ("libxcp/src/operations.rs::drop", "ifletErr(e)=self.finalise_copy(){}");
   ("libxcp/src/operations.rs::new", "letinfd=File::open(from)?;letmetadata=infd.metadata()?;letexists=to.try_exists()?;ifexists&&is_same_file(from,to)?{returnErr(XcpError::InvalidDestination(""Sourceanddestinationarethesamefile."").into());}if!exists&&to.symlink_metadata().is_ok(){returnErr(XcpError::InvalidDestination(""Notwritingthroughadanglingsymlink."").into());}ifexists&&to.symlink_metadata()?.is_dir(){returnErr(XcpError::InvalidDestination(""Cannotoverwriteadirectorywithanon-directory."").into());}let_backup_step=matchconfig.backup{Backup::None=>None,_=>Some(BACKUP_STEP.lock().unwrap_or_else(|e|e.into_inner())),};ifneeds_backup(to,config)?{letbackup=get_backup_path(to)?;fs::rename(to,backup)?;}letoutfd=File::create(to)?;drop(_backup_step);allocate_file(&outfd,metadata.len())?;lethandle=CopyHandle{infd,outfd,metadata,config:config.clone(),};Ok(handle)");
   ("libxcp/src/drivers/parfile.rs::copy", "let(work_tx,work_rx)=cbc::unbounded();letwalk_worker={letsc=stats.clone();letd=dest.to_path_buf();leto=self.config.clone();thread::spawn(move||tree_walker(sources,&d,&o,work_tx,sc))};letnworkers=self.config.num_workers();letmutjoins=Vec::with_capacity(nworkers);for_in0..nworkers{letcopy_worker={letwrx=work_rx.clone();letsc=stats.clone();letconf=self.config.clone();thread::spawn(move||copy_worker(wrx,&conf,sc))};joins.push(copy_worker);}walk_worker.join().map_err(|_|XcpError::CopyError(""Errorwalkingcopytree"".to_string()))??;forhandleinjoins{handle.join().map_err(|_|XcpError::CopyError(""Errorduringcopyoperation"".to_string()))??;}Ok(())");
   ("libxcp/src/drivers/parfile.rs::copy_worker", "foropinwork{matchop{Operation::Copy(from,to)=>{letr=CopyHandle::new(&from,&to,config).and_then(|hdl|hdl.copy_file(&updates));ifletErr(e)=r{updates.send(StatusUpdate::Error(XcpError::CopyError(e.to_string())))?;returnErr(e)}}Operation::Link(from,to)=>{ifletErr(e)=symlink(&from,&to){updates.send(StatusUpdate::Error(XcpError::CopyError(e.to_string())))?;returnErr(e.into())}}Operation::Special(from,to)=>{ifto.exists(){ifconfig.no_clobber{returnErr(XcpError::DestinationExists(""Destinationfileexistsand--no-clobberisset."",to).into());}ifis_same_file(&from,&to)?{returnErr(XcpError::InvalidDestination(""Sourceanddestinationarethesamefile."").into());}remove_file(&to)?;}copy_node(&from,&to)?;}}}Ok(())");
   ("libxcp/src/drivers/parblock.rs::copy", "let(file_tx,file_rx)=cbc::unbounded::<Operation>();letdispatcher={letq_config=self.config.clone();letst=stats.clone();thread::spawn(move||dispatch_worker(file_rx,&st,q_config))};letwalk_worker={letsc=stats.clone();letd=dest.to_path_buf();letc=self.config.clone();thread::spawn(move||tree_walker(sources,&d,&c,file_tx,sc))};walk_worker.join().map_err(|_|XcpError::CopyError(""Errorwalkingcopytree"".to_string()))??;dispatcher.join().map_err(|_|XcpError::CopyError(""Errordispatchingcopyoperation"".to_string()))??;Ok(())");
   ("libxcp/src/drivers/parblock.rs::dispatch_worker", "letnworkers=config.num_workers();letcopy_pool=Builder::new().num_threads(nworkers).queue_len(128).build();foropinfile_q{matchop{Operation::Copy(from,to)=>{letr=queue_file_blocks(&from,&to,&copy_pool,stats,&config);ifletErr(e)=r{stats.send(StatusUpdate::Error(XcpError::CopyError(e.to_string())))?;returnErr(e)}}Operation::Link(from,to)=>{letr=symlink(&from,&to);ifletErr(e)=r{stats.send(StatusUpdate::Error(XcpError::CopyError(e.to_string())))?;returnErr(e.into())}}Operation::Special(from,to)=>{ifto.exists(){ifconfig.no_clobber{returnErr(XcpError::DestinationExists(""Destinationfileexistsand--no-clobberisset."",to).into());}ifis_same_file(&from,&to)?{returnErr(XcpError::InvalidDestination(""Sourceanddestinationarethesamefile."").into());}remove_file(&to)?;}copy_node(&from,&to)?;}}}copy_pool.join();Ok(())");
   ("libxcp/src/drivers/parblock.rs::queue_file_range", "letlen=range.end-range.start;letbsize=handle.config.block_size;letblocks=(len/bsize)+(iflen%bsize>0{1}else{0});forblknin0..blocks{letharc=handle.clone();letstat_tx=status_channel.clone();letbytes=cmp::min(len-(blkn*bsize),bsize);letoff=range.start+(blkn*bsize);pool.execute(move||{letmutdone=0;letstat_result=loop{letcopy_result=copy_file_offset(&harc.infd,&harc.outfd,bytes-done,(off+done)asi64);matchcopy_result{Ok(0)ifoff+done>=harc.metadata.len()=>breakOk(()),Ok(0)=>{breakstat_tx.send(StatusUpdate::Error(XcpError::CopyError(""Sourcefileendedprematurely."".to_string())));}Ok(copied)=>{done+=copiedasu64;ifletErr(e)=stat_tx.send(StatusUpdate::Copied(copiedasu64)){breakErr(e);}ifdone>=bytes{breakOk(());}}Err(e)=>{breakstat_tx.send(StatusUpdate::Error(XcpError::CopyError(e.to_string())));}}};ifletErr(e)=stat_result{letmsg=format!(""Failedtosendstatusupdatemessage.Thisshouldnothappen;aborting.Error:{}"",e);panic!(""{}"",msg);}});}Ok(len)");
   ("libxcp/src/feedback.rs::new", "let(chan_tx,chan_rx)=cbc::unbounded();ChannelUpdater{chan_tx,chan_rx,config:config.clone(),sent:AtomicU64::new(0),}");
   ("libxcp/src/feedback.rs::send", "ifletStatusUpdate::Copied(bytes)=update{letbsize=self.config.block_size;letprev_written=self.sent.fetch_add(bytes,Ordering::Relaxed);if((prev_written+bytes)/bsize)>(prev_written/bsize){self.chan_tx.send(update)?;}}else{self.chan_tx.send(update)?;}Ok(())");
   ("src/main.rs::main", "letopts=Opts::from_args()?;init_logging(&opts)?;opts_check(&opts)?;let(dest,source_patterns)=matchopts.target_directory{Some(refd)=>{(d,opts.paths.as_slice())}None=>{opts.paths.split_last().ok_or(XcpError::InvalidArguments(""Insufficientarguments"".to_string()))?}};letdest=PathBuf::from(dest);letsources=expand_sources(source_patterns,&opts)?;ifsources.is_empty(){returnErr(XcpError::InvalidSource(""Nosourcefilesfound."").into());}elseif!dest.is_dir(){ifsources.len()==1&&sources[0].is_dir()&&dest.exists(){returnErr(XcpError::InvalidDestination(""Cannotcopyadirectorytoafile."").into());}elseifsources.len()>1{returnErr(XcpError::InvalidDestination(""Multiplesourcesanddestinationisnotadirectory."").into());}}letmuttargets:Vec<PathBuf>=Vec::with_capacity(sources.len());forsourcein&sources{if!source.exists(){returnErr(XcpError::InvalidSource(""Sourcedoesnotexist."").into());}ifsource.is_dir()&&!opts.recursive{returnErr(XcpError::InvalidSource(""Sourceisdirectoryand--recursivenotspecified."").into());}ifsource==&dest{returnErr(XcpError::InvalidSource(""Cannotcopyadirectoryintoitself"").into());}letsourcedir=source.components().next_back().ok_or(XcpError::InvalidSource(""Failedtofindsourcedirectoryname.""))?;lettarget_base=ifdest.exists()&&dest.is_dir()&&!opts.no_target_directory&&sourcedir!=Component::ParentDir{dest.join(sourcedir)}else{dest.to_path_buf()};ifsource==&target_base||(target_base.exists()&&libfs::is_same_file(source,&target_base)?){returnErr(XcpError::InvalidSource(""Sourceissameasdestination"").into());}ifsource.is_dir()&&target_base.exists()&&!target_base.is_dir(){returnErr(XcpError::InvalidDestination(""Cannotcopyadirectorytoafile."").into());}iftargets.contains(&target_base){returnErr(XcpError::InvalidDestination(""Multiplesourcesmaptothesamedestination."").into());}targets.push(target_base);}letconfig=Arc::new(Config::from(&opts));letdriver=load_driver(opts.driver,&config)?;letupdater=ChannelUpdater::new(&config);letstat_rx=updater.rx_channel();letstats:Arc<dynStatusUpdater>=Arc::new(updater);lethandle=thread::spawn(move||->Result<()>{driver.copy(sources,&dest,stats)});letpb=progress::create_bar(&opts,0)?;forstatinstat_rx{matchstat{StatusUpdate::Copied(v)=>pb.inc(v),StatusUpdate::Size(v)=>pb.inc_size(v),StatusUpdate::Error(e)=>{returnErr(e.into());}}}handle.join().map_err(|_|XcpError::CopyError(""Errorduringcopyoperation"".to_string()))??;pb.end();Ok(())");
   ("src/main.rs::expand_globs", "letexpanded=patterns.iter().map(|s|glob(s.as_str())).collect::<result::Result<Vec<Paths>,_>>()?.iter_mut().map::<result::Result<Vec<PathBuf>,_>,_>(Iterator::collect).collect::<result::Result<Vec<Vec<PathBuf>>,_>>()?;ifexpanded.iter().any(Vec::is_empty){returnErr(XcpError::InvalidSource(""Nosourcefilesfound."").into());}letpaths=expanded.iter().flat_map(ToOwned::to_owned).collect::<Vec<PathBuf>>();Ok(paths)");
   ("src/main.rs::opts_check", "#[cfg(any(target_os=""linux"",target_os=""android""))]ifopts.reflink==Reflink::Never{}ifopts.no_clobber&&opts.force{returnErr(XcpError::InvalidArguments(""--forceand--noclobbercannotbesetatthesametime."".to_string()).into());}Ok(())");
   ("src/main.rs::expand_sources", "ifopts.glob{expand_globs(source_list)}else{letpb=source_list.iter().map(PathBuf::from).collect::<Vec<PathBuf>>();Ok(pb)}");
   ("libxcp/src/drivers/parblock.rs::new", "if!supported_platform(){letmsg=""TheparblockdriverisnotcurrentlysupportedonthisOS."";returnErr(XcpError::UnsupportedOS(msg).into());}Ok(Self{config,})");
   ("libxcp/src/drivers/parfile.rs::new", "Ok(Self{config,})");
   ("libxcp/src/drivers/mod.rs::load_driver", "letdriver_impl:Box<dynCopyDriver+Send>=matchdriver{Drivers::ParFile=>Box::new(parfile::Driver::new(config.clone())?),#[cfg(feature=""parblock"")]Drivers::ParBlock=>Box::new(parblock::Driver::new(config.clone())?),};Ok(driver_impl)");
   ("libfs/src/linux.rs::reflink", "ifunsafe{libc::ioctl(outfd.as_raw_fd(),FICLONEasu64,infd.as_raw_fd())}!=0{letoserr=io::Error::last_os_error();matchoserr.raw_os_error(){Some(libc::EOPNOTSUPP)|Some(libc::EINVAL)|Some(libc::EXDEV)|Some(libc::ETXTBSY)=>returnOk(false),_=>returnErr(oserr.into()),}}Ok(true)");
   ("libfs/src/linux.rs::copy_file_bytes", "try_copy_file_range(infd,None,outfd,None,bytes).unwrap_or_else(||copy_bytes_uspace(infd,outfd,bytesasusize))");
   ("libfs/src/linux.rs::copy_file_offset", "letmutoff_in=offasu64;letmutoff_out=offasu64;try_copy_file_range(infd,Some(&mutoff_in),outfd,Some(&mutoff_out),bytes).unwrap_or_else(||copy_range_uspace(infd,outfd,bytesasusize,offasusize))");
   ("libfs/src/linux.rs::try_copy_file_range", "letcfr_ret=copy_file_range(infd,in_off,outfd,out_off,bytesasusize);matchcfr_ret{Ok(retval)=>{Some(Ok(retval))},Err(Errno::NOSYS)|Err(Errno::PERM)|Err(Errno::XDEV)=>{None},Err(errno)=>{Some(Err(errno.into()))},}");
   ("libfs/src/linux.rs::copy_node", "usestd::os::unix::fs::MetadataExt;letmeta=src.metadata()?;letrmode=RawMode::from(meta.permissions().mode());letmode=Mode::from_raw_mode(rmode);letftype=FileType::from_raw_mode(rmode);letdev=meta.rdev();mknodat(CWD,dest,ftype,mode,dev)?;Ok(())");
   ("libfs/src/linux.rs::lseek", "matchseek(fd,from){Err(errno)iferrno==Errno::NXIO=>Ok(SeekOff::EOF),Err(err)=>Err(err.into()),Ok(off)=>Ok(SeekOff::Offset(off)),}");
   ("libfs/src/common.rs::copy_xattr", "ifXATTR_SUPPORTED{forattrininfd.list_xattr()?{ifletSome(val)=infd.get_xattr(&attr)?{outfd.set_xattr(attr,val.as_slice())?;}}}Ok(())");
   ("libxcp/src/operations.rs::tree_walker", "forsourceinsources{letsourcedir=source.components().next_back().ok_or(XcpError::InvalidSource(""Failedtofindsourcedirectoryname.""))?;lettarget_base=ifdest.exists()&&dest.is_dir()&&!config.no_target_directory&&sourcedir!=Component::ParentDir{dest.join(sourcedir)}else{dest.to_path_buf()};letgitignore=parse_ignore(&source,config)?;forentryinWalkDir::new(&source).follow_links(config.dereference).follow_root_links(config.dereference).into_iter().filter_entry(|e|ignore_filter(e,&gitignore)){letepath=entry?.into_path();letfrom=ifconfig.dereference{letcpath=canonicalize(&epath)?;cpath}else{epath.clone()};letmeta=from.symlink_metadata()?;letpath=epath.strip_prefix(&source)?;lettarget=if!empty_path(path){target_base.join(path)}else{target_base.clone()};ifconfig.no_clobber&&target.symlink_metadata().is_ok(){letmsg=""Destinationfileexistsand--no-clobberisset."";stats.send(StatusUpdate::Error(XcpError::DestinationExists(msg,target)))?;returnErr(XcpError::EarlyShutdown(msg).into());}letft=FileType::from(meta.file_type());matchft{FileType::File=>{stats.send(StatusUpdate::Size(meta.len()))?;work_tx.send(Operation::Copy(from,target))?;}FileType::Symlink=>{letlfile=read_link(from)?;work_tx.send(Operation::Link(lfile,target))?;}FileType::Dir=>{ifletErr(err)=create_dir_all(&target){letmsg=format!(""Errorcreatingtargetdirectory:{}"",err);returnErr(XcpError::CopyError(msg).into())}}FileType::Socket|FileType::Char|FileType::Fifo=>{work_tx.send(Operation::Special(from,target))?;}FileType::Block|FileType::Other=>{returnErr(XcpError::UnknownFileType(target).into());}};}}Ok(())");
   ("libxcp/src/operations.rs::copy_file", "ifself.try_reflink()?{returnOk(self.metadata.len());}lettotal=ifprobably_sparse(&self.infd)?{self.copy_sparse(updates)?}else{self.copy_bytes(self.metadata.len(),updates)?};Ok(total)");
   ("libxcp/src/backup.rs::ls_file_dir", "letcwd=current_dir()?;letls_dir=file.parent().map(|p|ifp.as_os_str().is_empty(){&cwd}else{p}).unwrap_or(&cwd).read_dir()?;Ok(ls_dir)");
   ("libxcp/src/backup.rs::next_backup_num", "letfname=filename(file)?;letentries=ls_file_dir(file)?.collect::<std::io::Result<Vec<_>>>()?;letcurrent=entries.iter().filter_map(|de|is_num_backup(fname,&de.path())).max().unwrap_or(0);current.checked_add(1).ok_or_else(||XcpError::InvalidDestination(""Backupnumberoverflow."").into())");
   ("libxcp/src/backup.rs::needs_backup", "letneed=matchconf.backup{Backup::None=>false,Backup::Autoiffile.try_exists()?=>{has_backup(file)?}Backup::Numberediffile.try_exists()?=>true,_=>false,};Ok(need)");
   ("libxcp/src/drivers/parblock.rs::queue_file_blocks", "lethandle=CopyHandle::new(source,dest,config)?;letlen=handle.metadata.len();ifhandle.try_reflink()?{returnOk(len);}letharc=Arc::new(handle);letqueue_whole_file=||{queue_file_range(&harc,0..len,pool,status_channel)};ifprobably_sparse(&harc.infd)?{ifletSome(extents)=map_extents(&harc.infd)?{letsparse_map=merge_extents(extents)?;letmutqueued=0;forextinsparse_map{queued+=queue_file_range(&harc,ext.into(),pool,status_channel)?;}Ok(queued)}else{queue_whole_file()}}else{queue_whole_file()}")].

(* one function at a time, so that a property only depends on the functions its model mirrors *)
Fixpoint pin_of (name : string) (l : list (string * string)) : option string :=
  match l with
  | nil => None
  | (n, t) :: r => if String.eqb n name then Some t else pin_of name r
  end.

Definition pin_unchanged (name : string) : Prop := pin_of name x_pinned = pin_of name pinned_source /\ pin_of name x_pinned <> None.
