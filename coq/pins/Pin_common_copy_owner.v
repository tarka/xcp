From XcpProofs Require Import PinnedSource PinCheck.
From Coq Require Import String.
Local Open Scope string_scope.

Definition name_common_copy_owner : string := "libfs/src/common.rs::copy_owner".
Theorem pin_common_copy_owner : pin_unchanged name_common_copy_owner.
Proof. apply pin_unchangedb_ok. vm_compute. reflexivity. Qed.
