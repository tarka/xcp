From XcpProofs Require Import PinnedSource PinCheck.
From Coq Require Import String.
Local Open Scope string_scope.

Definition name_linux_copy_file_bytes : string := "libfs/src/linux.rs::copy_file_bytes".
Theorem pin_linux_copy_file_bytes : pin_unchanged name_linux_copy_file_bytes.
Proof. apply pin_unchangedb_ok. vm_compute. reflexivity. Qed.
