From XcpProofs Require Import PinnedSource PinCheck.
From Coq Require Import String.
Local Open Scope string_scope.

Definition name_parfile_copy : string := "libxcp/src/drivers/parfile.rs::copy".
Theorem pin_parfile_copy : pin_unchanged name_parfile_copy.
Proof. apply pin_unchangedb_ok. vm_compute. reflexivity. Qed.
