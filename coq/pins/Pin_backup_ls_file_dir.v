From XcpProofs Require Import PinnedSource PinCheck.
From Coq Require Import String.
Local Open Scope string_scope.

Definition name_backup_ls_file_dir : string := "libxcp/src/backup.rs::ls_file_dir".
Theorem pin_backup_ls_file_dir : pin_unchanged name_backup_ls_file_dir.
Proof. apply pin_unchangedb_ok. vm_compute. reflexivity. Qed.
