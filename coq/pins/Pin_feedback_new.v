From XcpProofs Require Import PinnedSource PinCheck.
From Coq Require Import String.
Local Open Scope string_scope.

Definition name_feedback_new : string := "libxcp/src/feedback.rs::new".
Theorem pin_feedback_new : pin_unchanged name_feedback_new.
Proof. apply pin_unchangedb_ok. vm_compute. reflexivity. Qed.
