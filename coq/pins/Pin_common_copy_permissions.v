From XcpProofs Require Import PinnedSource PinCheck.
From Coq Require Import String.
Local Open Scope string_scope.

Definition name_common_copy_permissions : string := "libfs/src/common.rs::copy_permissions".
Theorem pin_common_copy_permissions : pin_unchanged name_common_copy_permissions.
Proof. apply pin_unchangedb_ok. vm_compute. reflexivity. Qed.
