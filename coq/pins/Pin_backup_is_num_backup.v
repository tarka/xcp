From XcpProofs Require Import PinnedSource PinCheck.
From Coq Require Import String.
Local Open Scope string_scope.

Definition name_backup_is_num_backup : string := "libxcp/src/backup.rs::is_num_backup".
Theorem pin_backup_is_num_backup : pin_unchanged name_backup_is_num_backup.
Proof. apply pin_unchangedb_ok. vm_compute. reflexivity. Qed.
