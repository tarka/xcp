From XcpProofs Require Import PinnedSource PinCheck.
From Coq Require Import String.
Local Open Scope string_scope.

Definition name_operations_drop : string := "libxcp/src/operations.rs::drop".
Theorem pin_operations_drop : pin_unchanged name_operations_drop.
Proof. apply pin_unchangedb_ok. vm_compute. reflexivity. Qed.
