From XcpProofs Require Import PinnedSource PinCheck.
From Coq Require Import String.
Local Open Scope string_scope.

Definition name_parblock_queue_file_range : string := "libxcp/src/drivers/parblock.rs::queue_file_range".
Theorem pin_parblock_queue_file_range : pin_unchanged name_parblock_queue_file_range.
Proof. apply pin_unchangedb_ok. vm_compute. reflexivity. Qed.
