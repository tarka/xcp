From XcpProofs Require Import PinnedSource PinCheck.
From Coq Require Import String.
Local Open Scope string_scope.

Definition name_backup_next_backup_num : string := "libxcp/src/backup.rs::next_backup_num".
Theorem pin_backup_next_backup_num : pin_unchanged name_backup_next_backup_num.
Proof. apply pin_unchangedb_ok. vm_compute. reflexivity. Qed.
