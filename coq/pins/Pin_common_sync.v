From XcpProofs Require Import PinnedSource PinCheck.
From Coq Require Import String.
Local Open Scope string_scope.

Definition name_common_sync : string := "libfs/src/common.rs::sync".
Theorem pin_common_sync : pin_unchanged name_common_sync.
Proof. apply pin_unchangedb_ok. vm_compute. reflexivity. Qed.
