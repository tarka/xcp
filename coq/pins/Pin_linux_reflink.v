From XcpProofs Require Import PinnedSource PinCheck.
From Coq Require Import String.
Local Open Scope string_scope.

Definition name_linux_reflink : string := "libfs/src/linux.rs::reflink".
Theorem pin_linux_reflink : pin_unchanged name_linux_reflink.
Proof. apply pin_unchangedb_ok. vm_compute. reflexivity. Qed.
