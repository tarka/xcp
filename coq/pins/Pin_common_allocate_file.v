From XcpProofs Require Import PinnedSource PinCheck.
From Coq Require Import String.
Local Open Scope string_scope.

Definition name_common_allocate_file : string := "libfs/src/common.rs::allocate_file".
Theorem pin_common_allocate_file : pin_unchanged name_common_allocate_file.
Proof. apply pin_unchangedb_ok. vm_compute. reflexivity. Qed.
