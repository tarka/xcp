From XcpProofs Require Import PinnedSource PinCheck.
From Coq Require Import String.
Local Open Scope string_scope.

Definition name_paths_ignore_filter : string := "libxcp/src/paths.rs::ignore_filter".
Theorem pin_paths_ignore_filter : pin_unchanged name_paths_ignore_filter.
Proof. apply pin_unchangedb_ok. vm_compute. reflexivity. Qed.
