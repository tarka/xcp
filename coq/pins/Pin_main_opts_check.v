From XcpProofs Require Import PinnedSource PinCheck.
From Coq Require Import String.
Local Open Scope string_scope.

Definition name_main_opts_check : string := "src/main.rs::opts_check".
Theorem pin_main_opts_check : pin_unchanged name_main_opts_check.
Proof. apply pin_unchangedb_ok. vm_compute. reflexivity. Qed.
