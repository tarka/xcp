From XcpProofs Require Import PinnedSource PinCheck.
From Coq Require Import String.
Local Open Scope string_scope.

Definition name_operations_copy_file : string := "libxcp/src/operations.rs::copy_file".
Theorem pin_operations_copy_file : pin_unchanged name_operations_copy_file.
Proof. apply pin_unchangedb_ok. vm_compute. reflexivity. Qed.
