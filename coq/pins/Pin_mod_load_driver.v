From XcpProofs Require Import PinnedSource PinCheck.
From Coq Require Import String.
Local Open Scope string_scope.

Definition name_mod_load_driver : string := "libxcp/src/drivers/mod.rs::load_driver".
Theorem pin_mod_load_driver : pin_unchanged name_mod_load_driver.
Proof. apply pin_unchangedb_ok. vm_compute. reflexivity. Qed.
