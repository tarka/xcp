From XcpProofs Require Import PinnedSource PinCheck.
From Coq Require Import String.
Local Open Scope string_scope.

Definition name_parblock_dispatch_worker : string := "libxcp/src/drivers/parblock.rs::dispatch_worker".
Theorem pin_parblock_dispatch_worker : pin_unchanged name_parblock_dispatch_worker.
Proof. apply pin_unchangedb_ok. vm_compute. reflexivity. Qed.
