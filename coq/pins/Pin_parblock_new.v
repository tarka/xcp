From XcpProofs Require Import PinnedSource PinCheck.
From Coq Require Import String.
Local Open Scope string_scope.

Definition name_parblock_new : string := "libxcp/src/drivers/parblock.rs::new".
Theorem pin_parblock_new : pin_unchanged name_parblock_new.
Proof. apply pin_unchangedb_ok. vm_compute. reflexivity. Qed.
