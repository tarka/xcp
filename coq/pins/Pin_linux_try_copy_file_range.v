From XcpProofs Require Import PinnedSource PinCheck.
From Coq Require Import String.
Local Open Scope string_scope.

Definition name_linux_try_copy_file_range : string := "libfs/src/linux.rs::try_copy_file_range".
Theorem pin_linux_try_copy_file_range : pin_unchanged name_linux_try_copy_file_range.
Proof. apply pin_unchangedb_ok. vm_compute. reflexivity. Qed.
