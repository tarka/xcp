From XcpProofs Require Import PinnedSource PinCheck.
From Coq Require Import String.
Local Open Scope string_scope.

Definition name_parblock_queue_file_blocks : string := "libxcp/src/drivers/parblock.rs::queue_file_blocks".
Theorem pin_parblock_queue_file_blocks : pin_unchanged name_parblock_queue_file_blocks.
Proof. apply pin_unchangedb_ok. vm_compute. reflexivity. Qed.
