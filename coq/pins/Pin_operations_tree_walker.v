From XcpProofs Require Import PinnedSource PinCheck.
From Coq Require Import String.
Local Open Scope string_scope.

Definition name_operations_tree_walker : string := "libxcp/src/operations.rs::tree_walker".
Theorem pin_operations_tree_walker : pin_unchanged name_operations_tree_walker.
Proof. apply pin_unchangedb_ok. vm_compute. reflexivity. Qed.
