From XcpProofs Require Import PinnedSource PinCheck.
From Coq Require Import String.
Local Open Scope string_scope.

Definition name_backup_get_backup_path : string := "libxcp/src/backup.rs::get_backup_path".
Theorem pin_backup_get_backup_path : pin_unchanged name_backup_get_backup_path.
Proof. apply pin_unchangedb_ok. vm_compute. reflexivity. Qed.
