From XcpProofs Require Import PinnedSource PinCheck.
From Coq Require Import String.
Local Open Scope string_scope.

Definition name_parblock_copy : string := "libxcp/src/drivers/parblock.rs::copy".
Theorem pin_parblock_copy : pin_unchanged name_parblock_copy.
Proof. apply pin_unchangedb_ok. vm_compute. reflexivity. Qed.
