From XcpProofs Require Import PinnedSource PinCheck.
From Coq Require Import String.
Local Open Scope string_scope.

Definition name_operations_new : string := "libxcp/src/operations.rs::new".
Theorem pin_operations_new : pin_unchanged name_operations_new.
Proof. apply pin_unchangedb_ok. vm_compute. reflexivity. Qed.
