From XcpProofs Require Import PinnedSource PinCheck.
From Coq Require Import String.
Local Open Scope string_scope.

Definition name_main_main : string := "src/main.rs::main".
Theorem pin_main_main : pin_unchanged name_main_main.
Proof. apply pin_unchangedb_ok. vm_compute. reflexivity. Qed.
