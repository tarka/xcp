From XcpProofs Require Import PinnedSource PinCheck.
From Coq Require Import String.
Local Open Scope string_scope.

Definition name_linux_lseek : string := "libfs/src/linux.rs::lseek".
Theorem pin_linux_lseek : pin_unchanged name_linux_lseek.
Proof. apply pin_unchangedb_ok. vm_compute. reflexivity. Qed.
