From XcpProofs Require Import PinnedSource PinCheck.
From Coq Require Import String.
Local Open Scope string_scope.

Definition name_paths_parse_ignore : string := "libxcp/src/paths.rs::parse_ignore".
Theorem pin_paths_parse_ignore : pin_unchanged name_paths_parse_ignore.
Proof. apply pin_unchangedb_ok. vm_compute. reflexivity. Qed.
