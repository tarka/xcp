From XcpProofs Require Import PinnedSource PinCheck.
From Coq Require Import String.
Local Open Scope string_scope.

Definition name_parfile_copy_worker : string := "libxcp/src/drivers/parfile.rs::copy_worker".
Theorem pin_parfile_copy_worker : pin_unchanged name_parfile_copy_worker.
Proof. apply pin_unchangedb_ok. vm_compute. reflexivity. Qed.
