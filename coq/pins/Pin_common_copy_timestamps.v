From XcpProofs Require Import PinnedSource PinCheck.
From Coq Require Import String.
Local Open Scope string_scope.

Definition name_common_copy_timestamps : string := "libfs/src/common.rs::copy_timestamps".
Theorem pin_common_copy_timestamps : pin_unchanged name_common_copy_timestamps.
Proof. apply pin_unchangedb_ok. vm_compute. reflexivity. Qed.
