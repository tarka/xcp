From XcpProofs Require Import PinnedSource PinCheck.
From Coq Require Import String.
Local Open Scope string_scope.

Definition name_feedback_send : string := "libxcp/src/feedback.rs::send".
Theorem pin_feedback_send : pin_unchanged name_feedback_send.
Proof. apply pin_unchangedb_ok. vm_compute. reflexivity. Qed.
