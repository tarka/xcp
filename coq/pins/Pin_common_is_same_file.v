From XcpProofs Require Import PinnedSource PinCheck.
From Coq Require Import String.
Local Open Scope string_scope.

Definition name_common_is_same_file : string := "libfs/src/common.rs::is_same_file".
Theorem pin_common_is_same_file : pin_unchanged name_common_is_same_file.
Proof. apply pin_unchangedb_ok. vm_compute. reflexivity. Qed.
