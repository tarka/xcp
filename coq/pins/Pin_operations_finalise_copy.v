From XcpProofs Require Import PinnedSource PinCheck.
From Coq Require Import String.
Local Open Scope string_scope.

Definition name_operations_finalise_copy : string := "libxcp/src/operations.rs::finalise_copy".
Theorem pin_operations_finalise_copy : pin_unchanged name_operations_finalise_copy.
Proof. apply pin_unchangedb_ok. vm_compute. reflexivity. Qed.
