From XcpProofs Require Import PinnedSource PinCheck.
From Coq Require Import String.
Local Open Scope string_scope.

Definition name_backup_has_backup : string := "libxcp/src/backup.rs::has_backup".
Theorem pin_backup_has_backup : pin_unchanged name_backup_has_backup.
Proof. apply pin_unchangedb_ok. vm_compute. reflexivity. Qed.
