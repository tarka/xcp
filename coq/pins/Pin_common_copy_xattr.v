From XcpProofs Require Import PinnedSource PinCheck.
From Coq Require Import String.
Local Open Scope string_scope.

Definition name_common_copy_xattr : string := "libfs/src/common.rs::copy_xattr".
Theorem pin_common_copy_xattr : pin_unchanged name_common_copy_xattr.
Proof. apply pin_unchangedb_ok. vm_compute. reflexivity. Qed.
