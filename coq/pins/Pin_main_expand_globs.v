From XcpProofs Require Import PinnedSource PinCheck.
From Coq Require Import String.
Local Open Scope string_scope.

Definition name_main_expand_globs : string := "src/main.rs::expand_globs".
Theorem pin_main_expand_globs : pin_unchanged name_main_expand_globs.
Proof. apply pin_unchangedb_ok. vm_compute. reflexivity. Qed.
