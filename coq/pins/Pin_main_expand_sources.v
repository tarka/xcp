From XcpProofs Require Import PinnedSource PinCheck.
From Coq Require Import String.
Local Open Scope string_scope.

Definition name_main_expand_sources : string := "src/main.rs::expand_sources".
Theorem pin_main_expand_sources : pin_unchanged name_main_expand_sources.
Proof. apply pin_unchangedb_ok. vm_compute. reflexivity. Qed.
