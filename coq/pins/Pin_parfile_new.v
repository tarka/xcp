From XcpProofs Require Import PinnedSource PinCheck.
From Coq Require Import String.
Local Open Scope string_scope.

Definition name_parfile_new : string := "libxcp/src/drivers/parfile.rs::new".
Theorem pin_parfile_new : pin_unchanged name_parfile_new.
Proof. apply pin_unchangedb_ok. vm_compute. reflexivity. Qed.
