From XcpProofs Require Import PinnedSource PinCheck.
From Coq Require Import String.
Local Open Scope string_scope.

Definition name_linux_copy_file_offset : string := "libfs/src/linux.rs::copy_file_offset".
Theorem pin_linux_copy_file_offset : pin_unchanged name_linux_copy_file_offset.
Proof. apply pin_unchangedb_ok. vm_compute. reflexivity. Qed.
