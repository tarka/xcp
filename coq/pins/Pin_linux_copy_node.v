From XcpProofs Require Import PinnedSource PinCheck.
From Coq Require Import String.
Local Open Scope string_scope.

Definition name_linux_copy_node : string := "libfs/src/linux.rs::copy_node".
Theorem pin_linux_copy_node : pin_unchanged name_linux_copy_node.
Proof. apply pin_unchangedb_ok. vm_compute. reflexivity. Qed.
