(* C11 — holes stay holes.  What is provable: WHICH byte ranges xcp writes.
   How ext4 allocates blocks for those writes is runtime behaviour, observed by
   the correspondence check (st_blocks), not proved. *)
(* String before Base, so that `length` below is List's *)
From Coq Require Import String Permutation.
From XcpModel Require Import Base Extents Sparse CopyLoop FileCopy Extracted Ops.
From XcpProofs Require Import SparseProofs FileCopyProofs XExtents XLoops PinnedSource XOps XState.
From XcpPins Require Import Pin_parblock_dispatch_worker Pin_common_allocate_file Pin_operations_new
  Pin_parblock_queue_file_blocks Pin_operations_copy_file Pin_linux_lseek Pin_linux_copy_file_offset
  Pin_linux_copy_file_bytes Pin_linux_try_copy_file_range Pin_parblock_queue_file_range Pin_operations_finalise_copy.

(* parfile, sparse source: exactly the data segments are written — no byte of a
   hole is ever written, for every layout and block size *)
Theorem C11_parfile_writes_only_data : forall fuel bs m len clone L ans i,
  layout_ok 0 len L ->
  let o := parfile_copy_file fuel bs m len true clone (k_seek_data L len) (k_seek_hole L len) ans in
  f_st o = StOk -> f_cloned o = false -> ans_bounded (f_trace o) ->
  ~ in_data L i -> src_of (f_trace o) i = None.
Proof.
  intros fuel bs m len clone L ans i HL o Hst Hc Hb Hn.
  destruct (parfile_file_exact fuel bs m len true clone L ans HL Hst Hc Hb i) as [_ Hs].
  now apply (proj2 (Hs eq_refl)).
Qed.

(* parblock, sparse source with an extent map: only extent bytes and the
   one-byte adjacency gaps merge_extents adds are written, in every completion
   order — independent of hole sizes *)
Theorem C11_parblock_writes_only_extents : forall bs m len clone l ans i,
  0 < bs ->
  let o := parblock_copy_file bs m len true clone (MxSome l) ans in
  f_st o = StOk -> f_cloned o = false -> ans_bounded (f_trace o) ->
  forall tr', Permutation (f_trace o) tr' ->
  ~ covered l i -> ~ In i (gap_bytes l) -> src_of tr' i = None.
Proof.
  intros bs m len clone l ans i Hbs o Hst Hc Hb tr' Hp Hn Hg.
  destruct (parblock_file_exact bs m len true clone (MxSome l) ans Hbs Hst Hc Hb) as (ranges & Hr & Hx).
  apply (proj2 (Hx tr' Hp i)). intros Hin.
  destruct (pb_ranges_extents_only Hr Hin); contradiction.
Qed.

(* entirely empty file: nothing is written at all *)
Theorem C11_entirely_empty_parfile : forall fuel bs m len clone ans,
  let o := parfile_copy_file fuel bs m len true clone (k_seek_data [] len) (k_seek_hole [] len) ans in
  f_st o = StOk -> f_cloned o = false -> ans_bounded (f_trace o) ->
  forall i, src_of (f_trace o) i = None.
Proof.
  intros fuel bs m len clone ans o Hst Hc Hb i.
  exact (C11_parfile_writes_only_data fuel bs m len clone [] ans i I Hst Hc Hb (proj1 (in_data_nil i))).
Qed.

Theorem C11_entirely_empty_parblock : forall bs m len clone ans,
  f_trace (parblock_copy_file bs m len true clone (MxSome []) ans) = [].
Proof.
  intros bs m len clone ans. unfold parblock_copy_file.
  destruct (try_reflink m clone) as [iss [| |e]]; reflexivity.
Qed.

(* overwrite: the old content is gone before sizing (O_TRUNC to length 0, then ftruncate(len)): every byte reads 0
   (that the allocation is released with it is the file system's doing, observed by the runs) *)
Theorem C11_overwrite_starts_empty : forall old len i,
  fc_byte (handle_new_dest old len) i = 0 /\ fc_len (open_trunc old) = 0.
Proof. intros old len i. split; [apply handle_new_dest_fresh|reflexivity]. Qed.

Theorem C11_probably_sparse_spec : forall blocks size,
  probably_sparse blocks size = true <-> blocks < size / 512.
Proof. intros. unfold probably_sparse. apply N.ltb_lt. Qed.

Example C11_nonvacuous :
  let L := [(4096, 8192); (1052672, 1056768)] in
  let o := parfile_copy_file 5 65536 RfNever 2097152 true ClUnsup (k_seek_data L 2097152) (k_seek_hole L 2097152)
                             [XOk 4096; XOk 4096] in
  f_st o = StOk /\ length (f_trace o) = 2%nat /\ layout_okb 0 2097152 L = true.
Proof. vm_compute. repeat split. Qed.

(* ties to the current source: the model's definitions used above are EQUAL to what the translator (xlate/) extracts
   from the repository on this run *)
Theorem C11_src_probably_sparse : forall blocks size, x_probably_sparse blocks size = probably_sparse blocks size.
Proof. exact x_probably_sparse_ok. Qed.

(* CopyHandle::copy_sparse, translated from the current source (next_sparse_segments and copy_bytes being the
   modelled helpers), is the model's sparse walk — for all fuel, lengths, block sizes, seek oracles and answers *)
Theorem C11_src_copy_sparse_loop : forall fuel sd sh flen bs ans,
  x_copy_sparse fuel sd sh flen bs ans = copy_sparse fuel bs flen 0 sd sh ans.
Proof. exact x_copy_sparse_ok. Qed.

(* parblock::queue_file_blocks, translated: a sparse-looking file is queued range by range from the merged extent map (30 sparseness test, 42, 43, 44), the whole file otherwise (45) *)
Theorem C11_src_queue_file_blocks_steps : x_queue_file_blocks_steps = queue_file_blocks_steps.
Proof. exact x_queue_file_blocks_steps_ok. Qed.

(* nothing is carried from one file of a run to the next: the inventory of process-wide state (statics,
   thread-locals, umask calls) of the current source, regenerated by the translator on every run *)
Theorem C11_src_no_state_carried_between_files :
  x_static_items = ["libxcp/src/backup.rs::BAK_REGEX"; "libxcp/src/operations.rs::BACKUP_STEP"]%string /\ x_thread_locals = [] /\ x_umask_calls = 0%N.
Proof. exact x_process_wide_state_ok. Qed.

(* the glue functions on this property's path that its hand-written model mirrors, token for token as the model was
   validated against them (DESIGN.md 0.3, pinned glue): an edit of one of them re-opens its obligation *)
Theorem C11_src_pin_parblock_dispatch_worker : pin_unchanged name_parblock_dispatch_worker.
Proof. exact pin_parblock_dispatch_worker. Qed.
Theorem C11_src_pin_common_allocate_file : pin_unchanged name_common_allocate_file.
Proof. exact pin_common_allocate_file. Qed.
Theorem C11_src_pin_operations_new : pin_unchanged name_operations_new.
Proof. exact pin_operations_new. Qed.
Theorem C11_src_pin_parblock_queue_file_blocks : pin_unchanged name_parblock_queue_file_blocks.
Proof. exact pin_parblock_queue_file_blocks. Qed.
Theorem C11_src_pin_operations_copy_file : pin_unchanged name_operations_copy_file.
Proof. exact pin_operations_copy_file. Qed.
Theorem C11_src_pin_linux_lseek : pin_unchanged name_linux_lseek.
Proof. exact pin_linux_lseek. Qed.
Theorem C11_src_pin_linux_copy_file_offset : pin_unchanged name_linux_copy_file_offset.
Proof. exact pin_linux_copy_file_offset. Qed.
Theorem C11_src_pin_linux_copy_file_bytes : pin_unchanged name_linux_copy_file_bytes.
Proof. exact pin_linux_copy_file_bytes. Qed.
Theorem C11_src_pin_linux_try_copy_file_range : pin_unchanged name_linux_try_copy_file_range.
Proof. exact pin_linux_try_copy_file_range. Qed.
Theorem C11_src_pin_parblock_queue_file_range : pin_unchanged name_parblock_queue_file_range.
Proof. exact pin_parblock_queue_file_range. Qed.
Theorem C11_src_pin_operations_finalise_copy : pin_unchanged name_operations_finalise_copy.
Proof. exact pin_operations_finalise_copy. Qed.

Print Assumptions C11_parfile_writes_only_data.
Print Assumptions C11_parblock_writes_only_extents.
Print Assumptions C11_entirely_empty_parfile.
Print Assumptions C11_entirely_empty_parblock.
Print Assumptions C11_overwrite_starts_empty.
Print Assumptions C11_probably_sparse_spec.
Print Assumptions C11_src_probably_sparse.
Print Assumptions C11_src_copy_sparse_loop.
Print Assumptions C11_src_queue_file_blocks_steps.
Print Assumptions C11_src_no_state_carried_between_files.
Print Assumptions C11_src_pin_parblock_dispatch_worker.
Print Assumptions C11_src_pin_common_allocate_file.
Print Assumptions C11_src_pin_operations_new.
Print Assumptions C11_src_pin_parblock_queue_file_blocks.
Print Assumptions C11_src_pin_operations_copy_file.
Print Assumptions C11_src_pin_linux_lseek.
Print Assumptions C11_src_pin_linux_copy_file_offset.
Print Assumptions C11_src_pin_linux_copy_file_bytes.
Print Assumptions C11_src_pin_linux_try_copy_file_range.
Print Assumptions C11_src_pin_parblock_queue_file_range.
Print Assumptions C11_src_pin_operations_finalise_copy.
