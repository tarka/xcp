(* C16 — invalid invocations are rejected with no side effects.
   The validation block issues only stat-like queries (the oracles exists_,
   is_dir, same_file are functions of the initial file system), and the driver
   is started only when it returns None; so "no side effects" for a rejected
   invocation is the statement that the action list is empty, checked on the
   real binary by a byte-for-byte snapshot comparison.  clap's own usage errors
   (unknown enum value, exit 2) are outside the model and exercised by the
   correspondence only. *)
From XcpModel Require Import Base Paths Main Extracted.
From XcpProofs Require Import MainProofs XMain PinnedSource.
From XcpPins Require Import Pin_main_main Pin_main_expand_globs Pin_main_opts_check Pin_common_is_same_file
  Pin_main_expand_sources Pin_operations_tree_walker Pin_operations_new Pin_mod_load_driver Pin_parfile_new
  Pin_parblock_new.

(* every class of invalid invocation is rejected by the validation block, for
   every position of the offending source among valid ones and every
   destination state (all oracles) *)
Theorem C16_invalid_rejected : forall exists_ is_dir same_file o sources dest,
  Invalid exists_ is_dir same_file o sources dest ->
  validate exists_ is_dir same_file o sources dest <> None.
Proof. exact invalid_rejected. Qed.

(* what passing validation guarantees *)
Theorem C16_validated_sound : forall exists_ is_dir same_file o sources dest,
  validate exists_ is_dir same_file o sources dest = None ->
  sources <> [] /\
  (forall s, In s sources -> exists_ s = true /\ (is_dir s = true -> o_recursive o = true)) /\
  ((1 < length sources)%nat -> is_dir dest = true).
Proof. exact validate_none_sound. Qed.

(* contradictory options are rejected before anything else *)
Theorem C16_force_noclobber_conflict : forall exists_ is_dir same_file o paths oracle,
  o_no_clobber o = true -> o_force o = true ->
  front exists_ is_dir same_file o paths oracle = (Some E_CONFLICT, [], []).
Proof. exact front_conflict. Qed.

(* a malformed glob, or a pattern (or plain name) selecting nothing, at any
   position among valid ones rejects the whole invocation *)
Theorem C16_glob_rejects : forall pats oracle,
  (In None oracle \/ In (Some []) oracle) -> exists e, expand_sources true pats oracle = inr e.
Proof. exact expand_globs_rejects. Qed.

(* an error from `front` comes with no sources, or is validate's verdict on the sources it hands over *)
Theorem C16_reject_no_actions : forall exists_ is_dir same_file o paths oracle e srcs dest,
  front exists_ is_dir same_file o paths oracle = (Some e, srcs, dest) ->
  srcs = [] \/ validate exists_ is_dir same_file o srcs dest = Some e.
Proof.
  intros ex isd same o paths oracle e srcs dest H. unfold front in H.
  destruct (o_no_clobber o && o_force o); [injection H as <- <- <-; now left|].
  destruct (match o_target_directory o with Some d => Some (d, paths) | None => _ end) as [[d pats]|];
    [|injection H as <- <- <-; now left].
  destruct (expand_sources (o_glob o) pats oracle) as [[sources|]|e'];
    try (injection H as <- <- <-; now left).
  injection H as H1 <- <-. now right.
Qed.

Example C16_nonvacuous :
  let ex := fun p => path_eqb p (parse_path [97]) || path_eqb p (parse_path [100]) in   (* a, d exist *)
  let isd := fun p => path_eqb p (parse_path [100]) in                                  (* d is a directory *)
  validate ex isd (fun _ _ => false) (mkOpts true false false false false None)
           [parse_path [97]; parse_path [109]] (parse_path [100]) = Some E_MISSING.     (* xcp -r a m d *)
Proof. vm_compute. reflexivity. Qed.

(* tie to the current source (translator): the validation block of main() — every `return Err` between the
   expansion of the sources and the start of the driver, the per-source loop with its `targets` vector — translated
   statement by statement, IS the model's `validate`, for all oracles, options, sources and destinations *)
Theorem C16_src_main_validation_block : forall exists_ is_dir same_file o sources dest,
  x_validate exists_ is_dir same_file o sources dest = validate exists_ is_dir same_file o sources dest.
Proof. exact x_validate_ok. Qed.

(* the glue functions on this property's path that its hand-written model mirrors, token for token as the model was
   validated against them (DESIGN.md 0.3, pinned glue): an edit of one of them re-opens its obligation *)
Theorem C16_src_pin_main_main : pin_unchanged name_main_main.
Proof. exact pin_main_main. Qed.
Theorem C16_src_pin_main_expand_globs : pin_unchanged name_main_expand_globs.
Proof. exact pin_main_expand_globs. Qed.
Theorem C16_src_pin_main_opts_check : pin_unchanged name_main_opts_check.
Proof. exact pin_main_opts_check. Qed.
Theorem C16_src_pin_common_is_same_file : pin_unchanged name_common_is_same_file.
Proof. exact pin_common_is_same_file. Qed.
Theorem C16_src_pin_main_expand_sources : pin_unchanged name_main_expand_sources.
Proof. exact pin_main_expand_sources. Qed.
Theorem C16_src_pin_operations_tree_walker : pin_unchanged name_operations_tree_walker.
Proof. exact pin_operations_tree_walker. Qed.
Theorem C16_src_pin_operations_new : pin_unchanged name_operations_new.
Proof. exact pin_operations_new. Qed.
Theorem C16_src_pin_mod_load_driver : pin_unchanged name_mod_load_driver.
Proof. exact pin_mod_load_driver. Qed.
Theorem C16_src_pin_parfile_new : pin_unchanged name_parfile_new.
Proof. exact pin_parfile_new. Qed.
Theorem C16_src_pin_parblock_new : pin_unchanged name_parblock_new.
Proof. exact pin_parblock_new. Qed.

Print Assumptions C16_invalid_rejected.
Print Assumptions C16_validated_sound.
Print Assumptions C16_force_noclobber_conflict.
Print Assumptions C16_glob_rejects.
Print Assumptions C16_reject_no_actions.
Print Assumptions C16_src_main_validation_block.
Print Assumptions C16_src_pin_main_main.
Print Assumptions C16_src_pin_main_expand_globs.
Print Assumptions C16_src_pin_main_opts_check.
Print Assumptions C16_src_pin_common_is_same_file.
Print Assumptions C16_src_pin_main_expand_sources.
Print Assumptions C16_src_pin_operations_tree_walker.
Print Assumptions C16_src_pin_operations_new.
Print Assumptions C16_src_pin_mod_load_driver.
Print Assumptions C16_src_pin_parfile_new.
Print Assumptions C16_src_pin_parblock_new.
