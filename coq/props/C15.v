(* C15 — reflink modes keep their contract. *)
From Coq Require Import String.
From XcpModel Require Import Base CopyLoop FileCopy Extracted.
From XcpProofs Require Import FileCopyProofs XReflink XOps PinnedSource XState.
From XcpPins Require Import Pin_linux_reflink Pin_operations_new Pin_operations_copy_file Pin_operations_tree_walker
  Pin_parblock_dispatch_worker Pin_parfile_copy_worker Pin_linux_try_copy_file_range Pin_linux_copy_file_bytes
  Pin_linux_copy_file_offset.

(* never: no clone request, in either driver, whatever the kernel would answer *)
Theorem C15_never_no_clone : forall fuel bs len sparse clone sd sh mx ans,
  f_clone_issued (parfile_copy_file fuel bs RfNever len sparse clone sd sh ans) = false /\
  f_clone_issued (parblock_copy_file bs RfNever len sparse clone mx ans) = false.
Proof.
  intros. unfold parfile_copy_file, parblock_copy_file. cbn [try_reflink]. split; [reflexivity|].
  destruct (pb_ranges len sparse mx) as [[| | |] ?]; reflexivity.
Qed.

(* always: success iff the clone succeeded; and then no data is copied *)
Theorem C15_always_ok_iff_cloned : forall fuel bs len sparse clone sd sh mx ans,
  let pf := parfile_copy_file fuel bs RfAlways len sparse clone sd sh ans in
  let pb := parblock_copy_file bs RfAlways len sparse clone mx ans in
  (f_st pf = StOk <-> clone = ClOk) /\ (f_st pb = StOk <-> clone = ClOk) /\
  (f_st pf = StOk -> f_cloned pf = true /\ f_trace pf = []) /\
  (f_st pb = StOk -> f_cloned pb = true /\ f_trace pb = []).
Proof.
  intros. unfold pf, pb, parfile_copy_file, parblock_copy_file.
  destruct clone; cbn; repeat split; intros; try discriminate; try reflexivity; congruence.
Qed.

Theorem C15_always_unsupported_fails : forall fuel bs len sparse sd sh mx ans e,
  classify_clone e = ClUnsup ->
  f_st (parfile_copy_file fuel bs RfAlways len sparse (classify_clone e) sd sh ans) <> StOk /\
  f_st (parblock_copy_file bs RfAlways len sparse (classify_clone e) mx ans) <> StOk.
Proof.
  intros ? ? ? ? ? ? ? ? e H. rewrite H. unfold parfile_copy_file, parblock_copy_file. cbn. split; discriminate.
Qed.

(* auto and always issue the clone request, and issue it before any data
   transfer: a successful clone leaves the transfer list empty *)
Theorem C15_auto_clone_first : forall fuel bs len sparse sd sh mx ans,
  let pf := parfile_copy_file fuel bs RfAuto len sparse ClOk sd sh ans in
  let pb := parblock_copy_file bs RfAuto len sparse ClOk mx ans in
  f_clone_issued pf = true /\ f_cloned pf = true /\ f_trace pf = [] /\ f_st pf = StOk /\
  f_clone_issued pb = true /\ f_cloned pb = true /\ f_trace pb = [] /\ f_st pb = StOk.
Proof. intros. cbn. repeat split. Qed.

(* auto with an 'unsupported' answer behaves exactly like never (so C01's
   byte-exactness applies and the status is that of the plain copy) *)
Theorem C15_auto_fallback_is_plain_copy : forall fuel bs len sparse sd sh mx ans,
  let pfa := parfile_copy_file fuel bs RfAuto len sparse ClUnsup sd sh ans in
  let pfn := parfile_copy_file fuel bs RfNever len sparse ClUnsup sd sh ans in
  let pba := parblock_copy_file bs RfAuto len sparse ClUnsup mx ans in
  let pbn := parblock_copy_file bs RfNever len sparse ClUnsup mx ans in
  f_st pfa = f_st pfn /\ f_trace pfa = f_trace pfn /\ f_cloned pfa = false /\
  f_st pba = f_st pbn /\ f_trace pba = f_trace pbn /\ f_cloned pba = false.
Proof.
  intros. unfold pfa, pfn, pba, pbn, parfile_copy_file, parblock_copy_file. cbn [try_reflink].
  repeat split; try reflexivity; destruct (pb_ranges len sparse mx) as [[| | |] ?]; reflexivity.
Qed.

(* a hard clone error is fatal in auto and always *)
Theorem C15_hard_error_fatal : forall fuel bs len sparse sd sh mx ans e m,
  m <> RfNever ->
  f_st (parfile_copy_file fuel bs m len sparse (ClErr e) sd sh ans) = StErr e /\
  f_st (parblock_copy_file bs m len sparse (ClErr e) mx ans) = StErr e.
Proof.
  intros ? ? ? ? ? ? ? ? e m Hm. destruct m; [| |congruence]; split; reflexivity.
Qed.

Theorem C15_clone_unsupported_errnos : forall e,
  classify_clone e = ClUnsup <-> e = EOPNOTSUPP \/ e = EINVAL \/ e = EXDEV \/ e = ETXTBSY.
Proof. exact classify_clone_unsup. Qed.

(* ties to the current source: the model's definitions used above are EQUAL to what the translator (xlate/) extracts
   from the repository on this run *)
Theorem C15_src_reflink_unsupported_errnos : forall e, e <> 0%N ->
  existsb (N.eqb e) x_reflink_unsupported_errnos = match classify_clone e with ClUnsup => true | _ => false end.
Proof. exact x_reflink_unsupported_ok. Qed.

Theorem C15_src_try_reflink_table : forall m, m < 3 ->
  fst (try_reflink (mode_of_code m) ClOk) = x_try_reflink_issues_clone m /\
  rl_code (snd (try_reflink (mode_of_code m) ClOk)) = x_try_reflink m true /\
  rl_code (snd (try_reflink (mode_of_code m) ClUnsup)) = x_try_reflink m false /\
  (forall e, rl_code (snd (try_reflink (mode_of_code m) (ClErr e))) = if x_try_reflink_issues_clone m then 2 else 0).
Proof. exact x_try_reflink_ok. Qed.

Theorem C15_src_clone_attempt_first : x_copy_file_steps = [4; 98; 30; 31; 32]%N /\ x_queue_file_blocks_steps = [40; 4; 98; 41; 97; 30; 42; 43; 44; 45; 45]%N.
Proof. split; [exact x_copy_file_steps_ok|exact x_queue_file_blocks_steps_ok]. Qed.

(* nothing is carried from one file of a run to the next: the inventory of process-wide state (statics,
   thread-locals, umask calls) of the current source, regenerated by the translator on every run *)
Theorem C15_src_no_state_carried_between_files :
  x_static_items = ["libxcp/src/backup.rs::BAK_REGEX"; "libxcp/src/operations.rs::BACKUP_STEP"]%string /\ x_thread_locals = [] /\ x_umask_calls = 0%N.
Proof. exact x_process_wide_state_ok. Qed.

(* the glue functions on this property's path that its hand-written model mirrors, token for token as the model was
   validated against them (DESIGN.md 0.3, pinned glue): an edit of one of them re-opens its obligation *)
Theorem C15_src_pin_linux_reflink : pin_unchanged name_linux_reflink.
Proof. exact pin_linux_reflink. Qed.
Theorem C15_src_pin_operations_new : pin_unchanged name_operations_new.
Proof. exact pin_operations_new. Qed.
Theorem C15_src_pin_operations_copy_file : pin_unchanged name_operations_copy_file.
Proof. exact pin_operations_copy_file. Qed.
Theorem C15_src_pin_operations_tree_walker : pin_unchanged name_operations_tree_walker.
Proof. exact pin_operations_tree_walker. Qed.
Theorem C15_src_pin_parblock_dispatch_worker : pin_unchanged name_parblock_dispatch_worker.
Proof. exact pin_parblock_dispatch_worker. Qed.
Theorem C15_src_pin_parfile_copy_worker : pin_unchanged name_parfile_copy_worker.
Proof. exact pin_parfile_copy_worker. Qed.
Theorem C15_src_pin_linux_try_copy_file_range : pin_unchanged name_linux_try_copy_file_range.
Proof. exact pin_linux_try_copy_file_range. Qed.
Theorem C15_src_pin_linux_copy_file_bytes : pin_unchanged name_linux_copy_file_bytes.
Proof. exact pin_linux_copy_file_bytes. Qed.
Theorem C15_src_pin_linux_copy_file_offset : pin_unchanged name_linux_copy_file_offset.
Proof. exact pin_linux_copy_file_offset. Qed.

Print Assumptions C15_never_no_clone.
Print Assumptions C15_always_ok_iff_cloned.
Print Assumptions C15_always_unsupported_fails.
Print Assumptions C15_auto_clone_first.
Print Assumptions C15_auto_fallback_is_plain_copy.
Print Assumptions C15_hard_error_fatal.
Print Assumptions C15_clone_unsupported_errnos.
Print Assumptions C15_src_reflink_unsupported_errnos.
Print Assumptions C15_src_try_reflink_table.
Print Assumptions C15_src_clone_attempt_first.
Print Assumptions C15_src_no_state_carried_between_files.
Print Assumptions C15_src_pin_linux_reflink.
Print Assumptions C15_src_pin_operations_new.
Print Assumptions C15_src_pin_operations_copy_file.
Print Assumptions C15_src_pin_operations_tree_walker.
Print Assumptions C15_src_pin_parblock_dispatch_worker.
Print Assumptions C15_src_pin_parfile_copy_worker.
Print Assumptions C15_src_pin_linux_try_copy_file_range.
Print Assumptions C15_src_pin_linux_copy_file_bytes.
Print Assumptions C15_src_pin_linux_copy_file_offset.
