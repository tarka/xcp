(* C13 — --dereference copies what links point to, or fails.
   Model after `fix: --dereference descends into symlinked directories`.
   A link carries what the kernel resolves it to (any chain length: the
   resolution is the kernel's, bounded by its own limit of 40). *)
From Coq Require Import String.
From XcpModel Require Import Base Walker Extracted.
(* XWalker is not cited below (the theorems about the walker's text evaluate it): it is required so that a change of the
   walker's dispatch, which it ties to act_of, re-opens this property *)
From XcpProofs Require Import WalkerProofs XConfig PinnedSource XWalker.
From XcpPins Require Import Pin_main_expand_sources Pin_main_main Pin_operations_tree_walker Pin_operations_new
  Pin_parfile_copy_worker Pin_parblock_dispatch_worker Pin_main_expand_globs Pin_operations_copy_file.

(* no link operation is ever emitted when dereferencing *)
Theorem C13_deref_no_links : forall keep dex nc r t acts ok a,
  walk (mkW nc true) keep dex r t = (acts, ok) -> In a acts -> forall q text, a <> WLink q text.
Proof. exact walk_deref_no_links. Qed.

(* a dangling or cyclic link that is reached makes the walk fail *)
Theorem C13_deref_dangling_cyclic_fail : forall cfg keep dex r t q c d,
  In (q, EBroken c, d) (sel_entries keep (w_deref cfg) r t) -> snd (walk cfg keep dex r t) = false.
Proof. exact walk_deref_broken_fails. Qed.

(* what is selected under dereference is the image of the resolved tree: a
   link to a file is a file entry with the target's length, a link to a
   directory is a directory entry followed by the entries of the target's
   contents under the link's own path *)
Theorem C13_deref_image : forall keep r text,
  (forall len, sel_entries keep true r (TLink text (LTarget (TFile len))) =
               if keep r false then [(r, EFile len, false)] else []) /\
  (forall cs, sel_entries keep true r (TLink text (LTarget (TDir cs))) = sel_entries keep true r (TDir cs)) /\
  sel_entries keep true r (TLink text LDangling) = (if keep r false then [(r, EBroken 3, false)] else []) /\
  sel_entries keep true r (TLink text LLoop) = (if keep r false then [(r, EBroken 4, false)] else []).
Proof.
  intros. repeat split; intros; rewrite !sel_entries_eq; reflexivity.
Qed.

(* and that image is what gets processed (success => every entry handled) *)
Theorem C13_walk_processes_image : forall cfg keep dex t r acts,
  walk cfg keep dex r t = (acts, true) ->
  acts = flat_map (fun e => fst (act_of cfg dex e)) (sel_entries keep (w_deref cfg) r t).
Proof.
  intros cfg keep dex t r acts H. now apply walk_ok.
Qed.

Example C13_nonvacuous :
  let sub := TDir [([102], TFile 4)] in
  let t := TDir [([108], TLink [115] (LTarget sub)); ([109], TLink [120] (LTarget (TFile 9)))] in
  walk (mkW false true) (fun _ _ => true) (fun _ => false) [] t =
  ([WMkdir []; WMkdir [[108]]; WSize 4; WCopy [[108]; [102]] 4; WSize 9; WCopy [[109]] 9], true).
Proof. vm_compute. reflexivity. Qed.

(* tie to the current source (translator): the walk follows links exactly when dereferencing *)
Theorem C13_src_walk_follows_links_iff_deref : nth 1 x_walker_iterator ""%string = "follow_links(config.dereference)"%string.
Proof. reflexivity. Qed.

(* Config::from(&Opts) is one struct literal with no `..default` tail, and every option other than the worker count
   and the block size reaches the library unchanged under its own name *)
Theorem C13_src_options_reach_config : forall f e, List.In (f, e) x_config_fields ->
  f <> "workers"%string -> f <> "block_size"%string -> e = ("opts." ++ f)%string.
Proof. exact x_config_fields_plain. Qed.

(* the walker's per-entry prelude, translated: with --dereference `from` is the CANONICAL path of the entry and a
   failure to resolve it ends the walk (`canonicalize(&epath)?`), the kind is then taken from lstat(from) — so no
   entry is ever classified as a link under --dereference; the iterator follows links exactly when dereferencing *)
Theorem C13_src_walker_resolves_or_fails :
  nth 1 x_walker_entry_prelude ""%string =
    "letfrom=ifconfig.dereference{letcpath=canonicalize(&epath)?;debug!(""Dereferencing{:?}into{:?}"",epath,cpath);cpath}else{epath.clone()};"%string /\
  nth 2 x_walker_entry_prelude ""%string = "letmeta=from.symlink_metadata()?;"%string /\
  nth 1 x_walker_iterator ""%string = "follow_links(config.dereference)"%string.
Proof. exact (conj eq_refl (conj eq_refl eq_refl)). Qed.

(* the glue functions on this property's path that its hand-written model mirrors, token for token as the model was
   validated against them (DESIGN.md 0.3, pinned glue): an edit of one of them re-opens its obligation *)
Theorem C13_src_pin_main_expand_sources : pin_unchanged name_main_expand_sources.
Proof. exact pin_main_expand_sources. Qed.
Theorem C13_src_pin_main_main : pin_unchanged name_main_main.
Proof. exact pin_main_main. Qed.
Theorem C13_src_pin_operations_tree_walker : pin_unchanged name_operations_tree_walker.
Proof. exact pin_operations_tree_walker. Qed.
Theorem C13_src_pin_operations_new : pin_unchanged name_operations_new.
Proof. exact pin_operations_new. Qed.
Theorem C13_src_pin_parfile_copy_worker : pin_unchanged name_parfile_copy_worker.
Proof. exact pin_parfile_copy_worker. Qed.
Theorem C13_src_pin_parblock_dispatch_worker : pin_unchanged name_parblock_dispatch_worker.
Proof. exact pin_parblock_dispatch_worker. Qed.
Theorem C13_src_pin_main_expand_globs : pin_unchanged name_main_expand_globs.
Proof. exact pin_main_expand_globs. Qed.
Theorem C13_src_pin_operations_copy_file : pin_unchanged name_operations_copy_file.
Proof. exact pin_operations_copy_file. Qed.

Print Assumptions C13_deref_no_links.
Print Assumptions C13_deref_dangling_cyclic_fail.
Print Assumptions C13_deref_image.
Print Assumptions C13_walk_processes_image.
Print Assumptions C13_src_walk_follows_links_iff_deref.
Print Assumptions C13_src_options_reach_config.
Print Assumptions C13_src_walker_resolves_or_fails.
Print Assumptions C13_src_pin_main_expand_sources.
Print Assumptions C13_src_pin_main_main.
Print Assumptions C13_src_pin_operations_tree_walker.
Print Assumptions C13_src_pin_operations_new.
Print Assumptions C13_src_pin_parfile_copy_worker.
Print Assumptions C13_src_pin_parblock_dispatch_worker.
Print Assumptions C13_src_pin_main_expand_globs.
Print Assumptions C13_src_pin_operations_copy_file.
