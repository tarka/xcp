(* C06 — outcome independent of thread interleaving, worker count and driver.

   The protocol models (ConcBlock.v: walker / dispatcher / bounded pool queue /
   W pool workers / Arc reference count; ConcFile.v: walker / W workers) are
   labelled transition systems whose `reachable` relation contains EVERY
   interleaving.  The per-file automaton `phase_of` (ConcOutcome.v) judges a
   history; the same executable function judges the projected supervisor
   traces of the real xcp in harness/props/c06.py. *)
From Coq Require Import String Permutation.
From XcpModel Require Import Base ConcBlock ConcFile ConcOutcome Walker Extracted BackupRace.
From XcpProofs Require Import ConcBlockProofs ConcOutcomeProofs WalkerProofs XLoops XConfig PinnedSource XState
  BackupRaceProofs.
From XcpPins Require Import Pin_parblock_queue_file_range Pin_operations_drop Pin_parblock_dispatch_worker
  Pin_parfile_copy_worker Pin_backup_get_backup_path Pin_operations_new Pin_operations_copy_file
  Pin_operations_finalise_copy Pin_parblock_queue_file_blocks Pin_operations_tree_walker Pin_linux_copy_node
  Pin_backup_needs_backup Pin_backup_next_backup_num Pin_backup_ls_file_dir Pin_parfile_copy Pin_parblock_copy.
Local Open Scope nat_scope.

(* parblock: for all W, Q, all operation lists, all schedules: at the end every
   copied file was opened once, received each of its blocks exactly once in
   some order, was finalised once after all of them, and nothing else
   happened to it; every inline operation happened exactly once; no event
   concerns anything that is not an operation *)
Theorem C06_parblock_any_schedule : forall W Q ops s,
  reachable W Q ops s -> final s = true ->
  (forall h o, nth_error ops h = Some o -> outcome_ok o (phase_of h (b_ev s))) /\
  (forall h, nth_error ops h = None -> phase_of h (b_ev s) = PNone).
Proof. exact parblock_any_schedule. Qed.

Theorem C06_parfile_any_schedule : forall W ops s,
  freachable W ops s -> ffinal s = true ->
  (forall h o, nth_error ops h = Some o -> outcome_ok o (phase_of h (f_ev s))) /\
  (forall h, nth_error ops h = None -> phase_of h (f_ev s) = PNone).
Proof. exact parfile_any_schedule. Qed.

(* the two drivers agree with each other for any worker counts and schedules *)
Theorem C06_drivers_agree : forall W Q W' ops sb sf,
  reachable W Q ops sb -> final sb = true -> freachable W' ops sf -> ffinal sf = true ->
  forall h, same_outcome (phase_of h (b_ev sb)) (phase_of h (f_ev sf)).
Proof. exact drivers_agree. Qed.

(* ... stated as an equation: ANY two complete runs of the same workload — different worker counts, queue bounds,
   interleavings, and either driver — give every file the same outcome once the completion order of its blocks is
   forgotten (block writes are aligned and disjoint, C01, so that order does not matter for the bytes) *)
Theorem C06_two_schedules_same_outcome : forall W1 Q1 W2 Q2 ops s1 s2,
  reachable W1 Q1 ops s1 -> final s1 = true -> reachable W2 Q2 ops s2 -> final s2 = true ->
  forall h, norm_phase (phase_of h (b_ev s1)) = norm_phase (phase_of h (b_ev s2)).
Proof. exact parblock_two_schedules_same_outcome. Qed.

Theorem C06_drivers_same_outcome : forall W Q W' ops sb sf,
  reachable W Q ops sb -> final sb = true -> freachable W' ops sf -> ffinal sf = true ->
  forall h, norm_phase (phase_of h (b_ev sb)) = norm_phase (phase_of h (f_ev sf)).
Proof. exact drivers_same_outcome. Qed.

(* what PFinal means, concretely: the events of the file, oldest first *)
Theorem C06_history_shape : forall h ev,
  match phase_of h ev with
  | PNone => events_of h ev = []
  | POpen bs => events_of h ev = EOpen h :: map (EWrite h) (rev bs)
  | PFinal bs => events_of h ev = EOpen h :: map (EWrite h) (rev bs) ++ [EFinal h]
  | PInline => events_of h ev = [EInline h]
  | PBad => True
  end.
Proof. exact phase_shape. Qed.

(* a file's metadata is applied only after its last byte has been written:
   at EVERY reachable state (every prefix of every schedule), nothing of h is
   newer than its finalisation *)
Theorem C06_metadata_after_last_write : forall W Q ops s, reachable W Q ops s ->
  forall newer h older, b_ev s = newer ++ EFinal h :: older ->
  (forall b, ~ In (EWrite h b) newer) /\ ~ In (EOpen h) newer /\ ~ In (EFinal h) newer.
Proof. exact finalise_after_last_write. Qed.

(* every block job runs exactly once under every schedule *)
Theorem C06_blocks_exactly_once : forall W Q ops s, reachable W Q ops s -> final s = true ->
  Permutation (todo_pairs 0 ops) (written (b_ev s)).
Proof. exact final_writes_complete. Qed.

(* the executable judgement used on real traces is sound for the proposition *)
Theorem C06_trace_judgement_sound : forall o p, outcome_okb o p = true -> outcome_ok o p.
Proof. exact outcome_okb_sound. Qed.

(* a directory always exists before anything is created inside it: the walker
   reaches every directory (and creates it itself, synchronously, before it
   sends any later operation) before every entry below it — for every tree,
   ignore filter and dereference setting.  With C12_size_before_copied-style
   causality (an operation is executed only after the walker has sent it)
   this orders mkdir(parent) before every creation below it in EVERY schedule;
   the supervisor traces are checked for exactly that. *)
Theorem C06_directory_before_children : forall keep deref t A q k d B,
  sel_entries keep deref [] t = A ++ (q, k, d) :: B -> q <> [] ->
  exists d', In (removelast q, EDir, d') (A ++ [(q, k, d)]).
Proof.
  intros keep deref t A q k d B E Hq.
  destruct (sel_parent_before E Hq) as [d' Hin]. exists d'. apply in_or_app. now left.
Qed.

(* tie to the current source (translator): block jobs of one file run concurrently on the SAME two descriptors;
   their user-space fallback must therefore be positional (pread/pwrite), which is what makes block writes commute *)
Theorem C06_src_block_fallback_is_positional : x_read_bytes_steps = [50%N] /\ x_write_bytes_steps = [51%N].
Proof. exact x_positional_io_ok. Qed.

(* non-vacuity: a concrete schedule of a two-file, three-block workload with
   W = 2, Q = 1 reaches a final state, blocks completing out of order *)
Example C06_nonvacuous :
  let ops := [OCopy [0; 1]; OInline; OCopy [0]] in
  let s := run_sched 2 1 (init ops)
    [LWalk; LWalk; LWalk; LWalk; LDisp; LDisp; LTake; LDisp; LTake; LDone 0; LDisp; LDisp; LDisp; LDisp;
     LDone 0; LTake; LDisp; LDone 0; LDisp; LDisp] in
  final s = true /\ history_ok ops (b_ev s) = true /\
  phase_of 0 (b_ev s) = PFinal [0; 1].
Proof. vm_compute. repeat split. Qed.

(* the worker count both drivers start with is >= 1 whatever -w says (0 = one per CPU; a machine has >= 1): the
   hypothesis `1 <= W` of the driver theorems, from the two translated definitions *)
Theorem C06_src_workers_at_least_one : forall w ncpus, (1 <= ncpus)%N -> (1 <= x_num_workers (x_config_workers w ncpus) ncpus)%N.
Proof. exact x_workers_at_least_one. Qed.

(* nothing is carried from one file of a run to the next: the inventory of process-wide state (statics,
   thread-locals, umask calls) of the current source, regenerated by the translator on every run *)
Theorem C06_src_no_state_carried_between_files :
  x_static_items = ["libxcp/src/backup.rs::BAK_REGEX"; "libxcp/src/operations.rs::BACKUP_STEP"]%string /\ x_thread_locals = [] /\ x_umask_calls = 0%N.
Proof. exact x_process_wide_state_ok. Qed.

(* two workers of one run overwriting f and f.~1~ with numbered backups (BackupRace.v): with the backup step
   serialised (repair a649b3d; step codes 27/28 of CopyHandle::new) both orders end in the same directory with every
   old version preserved; without it, a scan falling into the other worker's gap loses a version *)
Theorem C06_backup_step_orders_agree : forall oldf oldb newf newb,
  snapshot (run newf newb (d_init oldf oldb) sched_AB) = snapshot (run newf newb (d_init oldf oldb) sched_BA) /\
  snapshot (run newf newb (d_init oldf oldb) sched_AB) = [Some newf; Some newb; Some oldf; None; Some oldb; None].
Proof. exact locked_overwrites_commute. Qed.

Theorem C06_backup_step_unserialised_refuted : exists oldf oldb newf newb,
  snapshot (run newf newb (d_init oldf oldb) sched_gap) <> snapshot (run newf newb (d_init oldf oldb) sched_AB).
Proof. exact unlocked_outcome_depends_on_schedule. Qed.

(* the glue functions on this property's path that its hand-written model mirrors, token for token as the model was
   validated against them (DESIGN.md 0.3, pinned glue): an edit of one of them re-opens its obligation *)
Theorem C06_src_pin_parblock_queue_file_range : pin_unchanged name_parblock_queue_file_range.
Proof. exact pin_parblock_queue_file_range. Qed.
Theorem C06_src_pin_operations_drop : pin_unchanged name_operations_drop.
Proof. exact pin_operations_drop. Qed.
Theorem C06_src_pin_parblock_dispatch_worker : pin_unchanged name_parblock_dispatch_worker.
Proof. exact pin_parblock_dispatch_worker. Qed.
Theorem C06_src_pin_parfile_copy_worker : pin_unchanged name_parfile_copy_worker.
Proof. exact pin_parfile_copy_worker. Qed.
Theorem C06_src_pin_backup_get_backup_path : pin_unchanged name_backup_get_backup_path.
Proof. exact pin_backup_get_backup_path. Qed.
Theorem C06_src_pin_operations_new : pin_unchanged name_operations_new.
Proof. exact pin_operations_new. Qed.
Theorem C06_src_pin_operations_copy_file : pin_unchanged name_operations_copy_file.
Proof. exact pin_operations_copy_file. Qed.
Theorem C06_src_pin_operations_finalise_copy : pin_unchanged name_operations_finalise_copy.
Proof. exact pin_operations_finalise_copy. Qed.
Theorem C06_src_pin_parblock_queue_file_blocks : pin_unchanged name_parblock_queue_file_blocks.
Proof. exact pin_parblock_queue_file_blocks. Qed.
Theorem C06_src_pin_operations_tree_walker : pin_unchanged name_operations_tree_walker.
Proof. exact pin_operations_tree_walker. Qed.
Theorem C06_src_pin_linux_copy_node : pin_unchanged name_linux_copy_node.
Proof. exact pin_linux_copy_node. Qed.
Theorem C06_src_pin_backup_needs_backup : pin_unchanged name_backup_needs_backup.
Proof. exact pin_backup_needs_backup. Qed.
Theorem C06_src_pin_backup_next_backup_num : pin_unchanged name_backup_next_backup_num.
Proof. exact pin_backup_next_backup_num. Qed.
Theorem C06_src_pin_backup_ls_file_dir : pin_unchanged name_backup_ls_file_dir.
Proof. exact pin_backup_ls_file_dir. Qed.
Theorem C06_src_pin_parfile_copy : pin_unchanged name_parfile_copy.
Proof. exact pin_parfile_copy. Qed.
Theorem C06_src_pin_parblock_copy : pin_unchanged name_parblock_copy.
Proof. exact pin_parblock_copy. Qed.

Print Assumptions C06_parblock_any_schedule.
Print Assumptions C06_parfile_any_schedule.
Print Assumptions C06_drivers_agree.
Print Assumptions C06_two_schedules_same_outcome.
Print Assumptions C06_drivers_same_outcome.
Print Assumptions C06_history_shape.
Print Assumptions C06_metadata_after_last_write.
Print Assumptions C06_blocks_exactly_once.
Print Assumptions C06_trace_judgement_sound.
Print Assumptions C06_directory_before_children.
Print Assumptions C06_src_block_fallback_is_positional.
Print Assumptions C06_src_workers_at_least_one.
Print Assumptions C06_src_no_state_carried_between_files.
Print Assumptions C06_backup_step_orders_agree.
Print Assumptions C06_backup_step_unserialised_refuted.
Print Assumptions C06_src_pin_parblock_queue_file_range.
Print Assumptions C06_src_pin_operations_drop.
Print Assumptions C06_src_pin_parblock_dispatch_worker.
Print Assumptions C06_src_pin_parfile_copy_worker.
Print Assumptions C06_src_pin_backup_get_backup_path.
Print Assumptions C06_src_pin_operations_new.
Print Assumptions C06_src_pin_operations_copy_file.
Print Assumptions C06_src_pin_operations_finalise_copy.
Print Assumptions C06_src_pin_parblock_queue_file_blocks.
Print Assumptions C06_src_pin_operations_tree_walker.
Print Assumptions C06_src_pin_linux_copy_node.
Print Assumptions C06_src_pin_backup_needs_backup.
Print Assumptions C06_src_pin_backup_next_backup_num.
Print Assumptions C06_src_pin_backup_ls_file_dir.
Print Assumptions C06_src_pin_parfile_copy.
Print Assumptions C06_src_pin_parblock_copy.
