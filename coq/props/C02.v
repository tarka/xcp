(* C02 — exit 0 implies the destination tree mirrors the selected source tree.
   Per source: the walk (model of tree_walker, validated against the real one
   and against std::path) and the sequential effect of its operations on the
   destination map; content of regular files is C01, independence of the
   schedule C06.  Hypotheses kept visible: sibling names are unique (a directory
   listing), a selected directory's target is absent or a directory (C16's
   validation covers the top level), no symlinked directories on mapped
   destination paths. *)
From Coq Require Import String.
From XcpModel Require Import Base Paths Walker Extracted Ops DestMatrix.
From XcpProofs Require Import BaseProofs WalkerProofs XWalker XConfig PinnedSource OpsProofs DestMatrixProofs.
From XcpPins Require Import Pin_parfile_copy_worker Pin_parblock_dispatch_worker Pin_main_expand_sources
  Pin_main_expand_globs Pin_mod_load_driver Pin_parfile_new Pin_parblock_new Pin_main_main Pin_paths_ignore_filter
  Pin_paths_parse_ignore Pin_operations_tree_walker Pin_operations_new Pin_linux_copy_node Pin_parfile_copy
  Pin_parblock_copy Pin_operations_copy_file Pin_backup_get_backup_path Pin_backup_next_backup_num
  Pin_backup_needs_backup Pin_backup_ls_file_dir Pin_backup_is_num_backup Pin_backup_has_backup.

(* cp's mapping rule: every entry maps to target_base ++ its relative path;
   distinct entries map to distinct targets; a child maps below its parent *)
Theorem C02_target_injective : forall tb r1 r2,
  target_of tb r1 = target_of tb r2 -> r1 = r2.
Proof.
  intros tb r1 r2 H. apply app_inv_head in H. revert H. apply map_inj. now intros a b [= ->].
Qed.

Theorem C02_child_below_parent : forall tb r n,
  target_of tb (r ++ [n]) = target_of tb r ++ [CNormal n].
Proof. intros. unfold target_of. now rewrite map_app, app_assoc. Qed.

(* a source whose last component is `..` (dir/.., ..) is copied into the destination ITSELF, as cp does: dest/.. would be the
   destination's parent — entries created outside the destination (defect found in round 7, repaired) *)
Theorem C02_dotdot_source_maps_onto_the_destination : forall dest source dd ntd,
  last_comp source = Some CParent -> target_base dest source dd ntd = Some dest.
Proof. intros dest source dd ntd H. unfold target_base. rewrite H. cbn [comp_eqb negb]. rewrite andb_false_r. reflexivity. Qed.

(* the base itself: into an existing directory -> dest/<last component>,
   otherwise (or with no-target-directory) -> dest *)
Theorem C02_target_base_rule : forall dest source n,
  last_comp source = Some (CNormal n) ->
  target_base dest source true false = Some (join dest [CNormal n]) /\
  target_base dest source false false = Some dest /\
  target_base dest source true true = Some dest.
Proof. intros dest source n H. unfold target_base. rewrite H. repeat split. Qed.

(* distinct selected entries have distinct relative paths *)
Theorem C02_entries_distinct : forall keep deref t r,
  tree_wf t = true -> NoDup (rels (sel_entries keep deref r t)).
Proof. exact sel_entries_nodup. Qed.

(* MIRROR + FRAME: after a successful walk, every selected entry's target holds
   an entry of the same kind (file of the same length, directory, link with
   the identical text, node of the same type), and every path that is neither
   a selected entry's target nor an ancestor of one is exactly as before *)
Theorem C02_mirror_on_success : forall cfg keep dex t (d : dmap) acts,
  walk cfg keep dex [] t = (acts, true) -> tree_wf t = true ->
  (forall e, In e (sel_entries keep (w_deref cfg) [] t) -> dir_ok d e) ->
  (forall e, In e (sel_entries keep (w_deref cfg) [] t) ->
     apply_walk d acts (e_rel e) = expect_kind (e_kind e)) /\
  (forall q, (forall e, In e (sel_entries keep (w_deref cfg) [] t) ->
                existsb (rel_eqb q) (prefixes (e_rel e)) = false) ->
     apply_walk d acts q = d q).
Proof. intros cfg keep dex. exact (walk_mirror cfg keep dex []). Qed.

(* the Size updates of a successful walk sum to the selected regular files (C12) *)
Theorem C02_sizes_sum : forall cfg keep dex r t acts,
  walk cfg keep dex r t = (acts, true) ->
  sumN (map size_of_act acts) = sumN (map file_len (sel_entries keep (w_deref cfg) r t)).
Proof. exact walk_sizes_sum. Qed.

Example C02_nonvacuous :
  let t := TDir [([97], TFile 3); ([98], TDir [([99], TLink [120] LDangling)]); ([100], TSpecial 4)] in
  let r := walk (mkW false false) (fun _ _ => true) (fun _ => false) [] t in
  snd r = true /\ tree_wf t = true /\
  apply_walk (fun _ => None) (fst r) [[98]; [99]] = Some (DLink [120]).
Proof. vm_compute. repeat split. Qed.

(* tie to the current source (translator): the walker's per-entry dispatch table *)
Theorem C02_src_walker_dispatch :
  Forall (fun p => map wact_code (fst (act_of (mkW false false) (fun _ => false) ([], kind_of_ft (fst p), false))) = snd p)
         x_walker_dispatch /\
  map fst x_walker_dispatch = [0; 1; 2; 3; 4; 5; 6; 7]%N.
Proof. exact x_walker_dispatch_ok. Qed.

(* the worker count both drivers start with is >= 1 whatever -w says (0 = one per CPU; a machine has >= 1): the
   hypothesis `1 <= W` of the driver theorems, from the two translated definitions *)
Theorem C02_src_workers_at_least_one : forall w ncpus, (1 <= ncpus)%N -> (1 <= x_num_workers (x_config_workers w ncpus) ncpus)%N.
Proof. exact x_workers_at_least_one. Qed.

(* Config::from(&Opts) is one struct literal with no `..default` tail, and every option other than the worker count
   and the block size reaches the library unchanged under its own name *)
Theorem C02_src_options_reach_config : forall f e, List.In (f, e) x_config_fields ->
  f <> "workers"%string -> f <> "block_size"%string -> e = ("opts." ++ f)%string.
Proof. exact x_config_fields_plain. Qed.

(* "nothing is created outside the destination": a dangling symbolic link found where a regular file is to be copied is
   refused before any mutating action (the file would otherwise appear wherever the link points) — repair a3911ca *)
Theorem C02_no_write_through_dangling_link : forall fc src dst e,
  ce_dst_exists e = false ->
  snd (copy_actions_d true fc src dst e) = false /\
  forall a, List.In a (fst (copy_actions_d true fc src dst e)) -> mutated a = nil.
Proof. exact copy_dangling_refused. Qed.

(* what xcp does with what it finds at the mapped destination (DestMatrix.v; every cell compared with the binary
   on every run) *)
Theorem C02_absent_is_created : forall s o, dest_outcome s DAbsent o = Created.
Proof. exact absent_is_created. Qed.

Theorem C02_dangling_is_never_written_through : forall s o, dest_outcome s DDangling o = Refused.
Proof. exact dangling_is_never_written_through. Qed.

(* frame: a directory found at the path is merged into or kept, never replaced or renamed away *)
Theorem C02_directory_is_merged_or_kept : forall s d o, is_real_dir d = true ->
  dest_outcome s d o = Merged \/ dest_outcome s d o = Refused.
Proof. exact directory_is_merged_or_kept. Qed.

(* a directory found where a regular file is to be written is refused before any mutating action (with backups it used to be
   renamed away wholesale, taking along entries no source maps onto) *)
Theorem C02_no_file_over_a_directory : forall dg fc src dst e,
  ce_dst_exists e = true -> ce_same_file e = false ->
  snd (copy_actions_dd dg true fc src dst e) = false /\
  forall a, List.In a (fst (copy_actions_dd dg true fc src dst e)) -> mutated a = nil.
Proof. exact copy_onto_directory_refused. Qed.

(* the regular-file row of the table follows from the model of CopyHandle::new: whenever Ops.copy_actions_dd refuses (same
   file apart), the cell is Refused; and a live non-directory entry is renamed to a backup when backups are on *)
Theorem C02_file_row_refusals_agree : forall d o fc src dst e,
  o <> ONoClobber -> ce_dst_exists e = exists_follow d -> ce_same_file e = false ->
  snd (copy_actions_dd (lexists d && negb (exists_follow d)) (is_real_dir d) fc src dst e) = false ->
  dest_outcome SFile d o = Refused.
Proof. exact file_row_refusals_agree. Qed.

(* an operand that is a symbolic link (no --dereference) is re-created as a link and NOT descended into: the walk is
   that one action (model), and the iterator follows a root link exactly when dereferencing (translated source) — what
   lies where the fresh link points, inside the destination or anywhere else, is never written through it *)
Theorem C02_link_operand_is_one_action : forall cfg keep dexists text res,
  w_deref cfg = false -> keep [] (tree_is_dir false (TLink text res)) = true ->
  walk cfg keep dexists [] (TLink text res) =
    if w_no_clobber cfg && dexists [] then ([WErr 1 []], false) else ([WLink [] text], true).
Proof. exact link_operand_is_one_action. Qed.

Theorem C02_src_root_link_followed_iff_deref :
  List.nth 2 x_walker_iterator ""%string = "follow_root_links(config.dereference)"%string.
Proof. reflexivity. Qed.

(* the destination's parent directory is missing: refused for every source kind whose creating call cannot make the
   ancestors (a failed step, never `the source vanished`); compared with the binary on every run *)
Theorem C02_parent_missing_refused_unless_directory : forall s, s <> SDir -> parent_missing_outcome s = Refused.
Proof. exact parent_missing_refused_unless_directory. Qed.

(* the glue functions on this property's path that its hand-written model mirrors, token for token as the model was
   validated against them (DESIGN.md 0.3, pinned glue): an edit of one of them re-opens its obligation *)
Theorem C02_src_pin_parfile_copy_worker : pin_unchanged name_parfile_copy_worker.
Proof. exact pin_parfile_copy_worker. Qed.
Theorem C02_src_pin_parblock_dispatch_worker : pin_unchanged name_parblock_dispatch_worker.
Proof. exact pin_parblock_dispatch_worker. Qed.
Theorem C02_src_pin_main_expand_sources : pin_unchanged name_main_expand_sources.
Proof. exact pin_main_expand_sources. Qed.
Theorem C02_src_pin_main_expand_globs : pin_unchanged name_main_expand_globs.
Proof. exact pin_main_expand_globs. Qed.
Theorem C02_src_pin_mod_load_driver : pin_unchanged name_mod_load_driver.
Proof. exact pin_mod_load_driver. Qed.
Theorem C02_src_pin_parfile_new : pin_unchanged name_parfile_new.
Proof. exact pin_parfile_new. Qed.
Theorem C02_src_pin_parblock_new : pin_unchanged name_parblock_new.
Proof. exact pin_parblock_new. Qed.
Theorem C02_src_pin_main_main : pin_unchanged name_main_main.
Proof. exact pin_main_main. Qed.
(* `selected`: the filter every walked entry passes through, and the matcher it asks *)
Theorem C02_src_pin_paths_ignore_filter : pin_unchanged name_paths_ignore_filter.
Proof. exact pin_paths_ignore_filter. Qed.
Theorem C02_src_pin_paths_parse_ignore : pin_unchanged name_paths_parse_ignore.
Proof. exact pin_paths_parse_ignore. Qed.
Theorem C02_src_pin_operations_tree_walker : pin_unchanged name_operations_tree_walker.
Proof. exact pin_operations_tree_walker. Qed.
Theorem C02_src_pin_operations_new : pin_unchanged name_operations_new.
Proof. exact pin_operations_new. Qed.
Theorem C02_src_pin_linux_copy_node : pin_unchanged name_linux_copy_node.
Proof. exact pin_linux_copy_node. Qed.
Theorem C02_src_pin_parfile_copy : pin_unchanged name_parfile_copy.
Proof. exact pin_parfile_copy. Qed.
Theorem C02_src_pin_parblock_copy : pin_unchanged name_parblock_copy.
Proof. exact pin_parblock_copy. Qed.
Theorem C02_src_pin_operations_copy_file : pin_unchanged name_operations_copy_file.
Proof. exact pin_operations_copy_file. Qed.
(* with backups enabled an existing destination entry is RENAMED: the name it gets must be new, or an entry that no source
   maps onto is replaced — the functions that choose that name, pinned as validated *)
Theorem C02_src_pin_backup_get_backup_path : pin_unchanged name_backup_get_backup_path.
Proof. exact pin_backup_get_backup_path. Qed.
Theorem C02_src_pin_backup_next_backup_num : pin_unchanged name_backup_next_backup_num.
Proof. exact pin_backup_next_backup_num. Qed.
Theorem C02_src_pin_backup_needs_backup : pin_unchanged name_backup_needs_backup.
Proof. exact pin_backup_needs_backup. Qed.
Theorem C02_src_pin_backup_ls_file_dir : pin_unchanged name_backup_ls_file_dir.
Proof. exact pin_backup_ls_file_dir. Qed.
Theorem C02_src_pin_backup_is_num_backup : pin_unchanged name_backup_is_num_backup.
Proof. exact pin_backup_is_num_backup. Qed.
Theorem C02_src_pin_backup_has_backup : pin_unchanged name_backup_has_backup.
Proof. exact pin_backup_has_backup. Qed.

Print Assumptions C02_target_injective.
Print Assumptions C02_child_below_parent.
Print Assumptions C02_dotdot_source_maps_onto_the_destination.
Print Assumptions C02_target_base_rule.
Print Assumptions C02_entries_distinct.
Print Assumptions C02_mirror_on_success.
Print Assumptions C02_sizes_sum.
Print Assumptions C02_src_walker_dispatch.
Print Assumptions C02_src_workers_at_least_one.
Print Assumptions C02_src_options_reach_config.
Print Assumptions C02_no_write_through_dangling_link.
Print Assumptions C02_absent_is_created.
Print Assumptions C02_dangling_is_never_written_through.
Print Assumptions C02_directory_is_merged_or_kept.
Print Assumptions C02_no_file_over_a_directory.
Print Assumptions C02_file_row_refusals_agree.
Print Assumptions C02_link_operand_is_one_action.
Print Assumptions C02_src_root_link_followed_iff_deref.
Print Assumptions C02_parent_missing_refused_unless_directory.
Print Assumptions C02_src_pin_parfile_copy_worker.
Print Assumptions C02_src_pin_parblock_dispatch_worker.
Print Assumptions C02_src_pin_main_expand_sources.
Print Assumptions C02_src_pin_main_expand_globs.
Print Assumptions C02_src_pin_mod_load_driver.
Print Assumptions C02_src_pin_parfile_new.
Print Assumptions C02_src_pin_parblock_new.
Print Assumptions C02_src_pin_main_main.
Print Assumptions C02_src_pin_paths_ignore_filter.
Print Assumptions C02_src_pin_paths_parse_ignore.
Print Assumptions C02_src_pin_operations_tree_walker.
Print Assumptions C02_src_pin_operations_new.
Print Assumptions C02_src_pin_linux_copy_node.
Print Assumptions C02_src_pin_parfile_copy.
Print Assumptions C02_src_pin_parblock_copy.
Print Assumptions C02_src_pin_operations_copy_file.
Print Assumptions C02_src_pin_backup_get_backup_path.
Print Assumptions C02_src_pin_backup_next_backup_num.
Print Assumptions C02_src_pin_backup_needs_backup.
Print Assumptions C02_src_pin_backup_ls_file_dir.
Print Assumptions C02_src_pin_backup_is_num_backup.
Print Assumptions C02_src_pin_backup_has_backup.
