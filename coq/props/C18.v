(* C18 — --fsync flushes every destination file after its last write.

   Two layers.  (1) Within one copy operation (Ops.copy_actions: the system
   calls of CopyHandle::new, the data transfers and finalise_copy) fsync —
   exactly one when requested, none otherwise — is the very last action, after
   every sizing, clone and data action.  (2) Under EVERY interleaving of the
   parblock protocol (blocks of one file completing in any order on any
   worker) finalise_copy runs exactly once per copied file, after every block
   write of that file, and before the run reaches its final state (the pool
   join / worker joins that copy() returns after). *)
From Coq Require Import String Permutation.
From XcpModel Require Import Base Meta Ops ConcBlock ConcFile ConcOutcome Extracted.
From XcpProofs Require Import OpsProofs ConcBlockProofs ConcOutcomeProofs PinnedSource XState.
From XcpPins Require Import Pin_operations_finalise_copy Pin_operations_drop Pin_common_sync
  Pin_common_copy_permissions Pin_common_copy_xattr Pin_operations_new Pin_operations_tree_walker
  Pin_common_copy_timestamps Pin_common_copy_owner Pin_parfile_copy_worker Pin_parblock_dispatch_worker
  Pin_parblock_queue_file_blocks Pin_parblock_queue_file_range Pin_operations_copy_file Pin_parblock_copy
  Pin_parfile_copy Pin_main_main.
Local Open Scope nat_scope.

Theorem C18_fsync_is_last_action : forall fc src dst e l,
  copy_actions fc src dst e = (l, true) ->
  exists A F, l = A ++ F /\
    existsb is_meta A = false /\ existsb data_or_sizing F = false /\
    (c_fsync fc = true -> exists F', F = F' ++ [AFsync (KDst dst)] /\ existsb is_fsync (A ++ F') = false) /\
    (c_fsync fc = false -> existsb is_fsync l = false).
Proof. exact copy_actions_order. Qed.

(* in every reachable state of parblock, nothing of a file is newer than its
   finalisation: no block write, no second finalisation *)
Theorem C18_finalise_after_every_write : forall W Q ops s, reachable W Q ops s ->
  forall newer h older, b_ev s = newer ++ EFinal h :: older ->
  (forall b, ~ In (EWrite h b) newer) /\ ~ In (EOpen h) newer /\ ~ In (EFinal h) newer.
Proof. exact finalise_after_last_write. Qed.

(* ... and it does happen, exactly once, for every copied file (zero-length
   and cloned files included: a file with no block jobs is finalised when the
   dispatcher drops its reference), before the final state *)
Theorem C18_every_file_finalised_once_parblock : forall W Q ops s h js,
  reachable W Q ops s -> final s = true -> nth_error ops h = Some (OCopy js) ->
  exists bs, events_of h (b_ev s) = EOpen h :: map (EWrite h) (rev bs) ++ [EFinal h].
Proof. intros W Q ops s h js Hr Hf. exact (complete_copy_events (parblock_any_schedule W Q ops s Hr Hf)). Qed.

Theorem C18_every_file_finalised_once_parfile : forall W ops s h js,
  freachable W ops s -> ffinal s = true -> nth_error ops h = Some (OCopy js) ->
  exists bs, events_of h (f_ev s) = EOpen h :: map (EWrite h) (rev bs) ++ [EFinal h].
Proof. intros W ops s h js Hr Hf. exact (complete_copy_events (parfile_any_schedule W ops s Hr Hf)). Qed.

(* nothing is left open at the end: every handle was dropped, so every
   finalisation (and its fsync) has been issued before copy() returns *)
Theorem C18_no_handle_survives : forall W Q ops s, reachable W Q ops s -> final s = true -> b_open s = [].
Proof. intros W Q ops s Hr. exact (final_state_closed W Q s (inv_reachable W Q ops s Hr)). Qed.

(* both layers together: under EVERY schedule of parblock (any W, Q), the system calls issued on a
   copied file h are exactly Ops.copy_actions for SOME completion order bs of its blocks; hence with
   --fsync the last of them is the fsync, nothing before it is one, and every sizing / clone / data
   call lies before the finalisation part *)
Theorem C18_fsync_last_in_every_schedule : forall W Q ops s h js fc src dst e0 blk,
  reachable W Q ops s -> final s = true -> nth_error ops h = Some (OCopy js) ->
  ce_dst_exists e0 && ce_same_file e0 = false -> ce_cloned e0 = false -> c_fsync fc = true ->
  exists bs A F',
    Permutation bs js /\
    flat_map (ev_actions fc src dst e0 blk) (events_of h (b_ev s)) = (A ++ F') ++ [AFsync (KDst dst)] /\
    existsb is_fsync (A ++ F') = false /\ existsb is_meta A = false /\ existsb data_or_sizing F' = false.
Proof.
  intros W Q ops s h js fc src dst e0 blk Hr Hf Hn Hsame Hcl Hfs.
  destruct (parblock_file_calls W Q ops s h js fc src dst e0 blk Hr Hf Hn Hsame Hcl) as (bs & H & E).
  destruct (copy_actions_order fc src dst _ _ E) as (A & F & Hl & HA & HF & Hfsync & _).
  destruct (Hfsync Hfs) as (F' & HF' & Hno).
  exists bs, A, F'. split; [exact H|]. rewrite Hl, HF', app_assoc. split; [reflexivity|]. split; [exact Hno|].
  split; [exact HA|]. rewrite HF', existsb_app in HF. apply Bool.orb_false_iff in HF. tauto.
Qed.

Example C18_nonvacuous :
  exists l, copy_actions (mkFin false false false true) [] [] (mkEnv false false None 10 false true [(0, 4); (4, 6)]%N 0) = (l, true) /\
            last l (AStat (KSrc [])) = AFsync (KDst []).
Proof. eexists. split; [vm_compute; reflexivity|reflexivity]. Qed.

(* ties to the current source: the model's definitions used above are EQUAL to what the translator (xlate/) extracts
   from the repository on this run *)
Theorem C18_src_fsync_is_last_step : exists pre, x_finalise_order = pre ++ [(10%N, false)] /\ forallb (fun s => negb (N.eqb (fst s) 10)) pre = true.
Proof. exists (removelast x_finalise_order). split; vm_compute; reflexivity. Qed.

(* nothing is carried from one file of a run to the next: the inventory of process-wide state (statics,
   thread-locals, umask calls) of the current source, regenerated by the translator on every run *)
Theorem C18_src_no_state_carried_between_files :
  x_static_items = ["libxcp/src/backup.rs::BAK_REGEX"; "libxcp/src/operations.rs::BACKUP_STEP"]%string /\ x_thread_locals = [] /\ x_umask_calls = 0%N.
Proof. exact x_process_wide_state_ok. Qed.

(* the glue functions on this property's path that its hand-written model mirrors, token for token as the model was
   validated against them (DESIGN.md 0.3, pinned glue): an edit of one of them re-opens its obligation *)
Theorem C18_src_pin_operations_finalise_copy : pin_unchanged name_operations_finalise_copy.
Proof. exact pin_operations_finalise_copy. Qed.
Theorem C18_src_pin_operations_drop : pin_unchanged name_operations_drop.
Proof. exact pin_operations_drop. Qed.
Theorem C18_src_pin_common_sync : pin_unchanged name_common_sync.
Proof. exact pin_common_sync. Qed.
Theorem C18_src_pin_common_copy_permissions : pin_unchanged name_common_copy_permissions.
Proof. exact pin_common_copy_permissions. Qed.
Theorem C18_src_pin_common_copy_xattr : pin_unchanged name_common_copy_xattr.
Proof. exact pin_common_copy_xattr. Qed.
Theorem C18_src_pin_operations_new : pin_unchanged name_operations_new.
Proof. exact pin_operations_new. Qed.
Theorem C18_src_pin_operations_tree_walker : pin_unchanged name_operations_tree_walker.
Proof. exact pin_operations_tree_walker. Qed.
(* the steps finalise_copy runs BEFORE the flush (owner, permissions, xattrs, timestamps): each is a `?` in front of
   sync(), so a step that fails for some input costs that file its fsync.  They are pinned token for token as validated:
   on the validated text none of them fails for any mode, owner, xattr set or timestamp a file system can hold (the run
   covers modes with every bit, sources before 1970 and beyond 2100, refused xattrs) *)
Theorem C18_src_pin_common_copy_timestamps : pin_unchanged name_common_copy_timestamps.
Proof. exact pin_common_copy_timestamps. Qed.
Theorem C18_src_pin_common_copy_owner : pin_unchanged name_common_copy_owner.
Proof. exact pin_common_copy_owner. Qed.
Theorem C18_src_pin_parfile_copy_worker : pin_unchanged name_parfile_copy_worker.
Proof. exact pin_parfile_copy_worker. Qed.
Theorem C18_src_pin_parblock_dispatch_worker : pin_unchanged name_parblock_dispatch_worker.
Proof. exact pin_parblock_dispatch_worker. Qed.
Theorem C18_src_pin_parblock_queue_file_blocks : pin_unchanged name_parblock_queue_file_blocks.
Proof. exact pin_parblock_queue_file_blocks. Qed.
Theorem C18_src_pin_parblock_queue_file_range : pin_unchanged name_parblock_queue_file_range.
Proof. exact pin_parblock_queue_file_range. Qed.
Theorem C18_src_pin_operations_copy_file : pin_unchanged name_operations_copy_file.
Proof. exact pin_operations_copy_file. Qed.
Theorem C18_src_pin_parblock_copy : pin_unchanged name_parblock_copy.
Proof. exact pin_parblock_copy. Qed.
Theorem C18_src_pin_parfile_copy : pin_unchanged name_parfile_copy.
Proof. exact pin_parfile_copy. Qed.
Theorem C18_src_pin_main_main : pin_unchanged name_main_main.
Proof. exact pin_main_main. Qed.

Print Assumptions C18_fsync_is_last_action.
Print Assumptions C18_finalise_after_every_write.
Print Assumptions C18_every_file_finalised_once_parblock.
Print Assumptions C18_every_file_finalised_once_parfile.
Print Assumptions C18_no_handle_survives.
Print Assumptions C18_fsync_last_in_every_schedule.
Print Assumptions C18_src_fsync_is_last_step.
Print Assumptions C18_src_no_state_carried_between_files.
Print Assumptions C18_src_pin_operations_finalise_copy.
Print Assumptions C18_src_pin_operations_drop.
Print Assumptions C18_src_pin_common_sync.
Print Assumptions C18_src_pin_common_copy_permissions.
Print Assumptions C18_src_pin_common_copy_xattr.
Print Assumptions C18_src_pin_operations_new.
Print Assumptions C18_src_pin_operations_tree_walker.
Print Assumptions C18_src_pin_common_copy_timestamps.
Print Assumptions C18_src_pin_common_copy_owner.
Print Assumptions C18_src_pin_parfile_copy_worker.
Print Assumptions C18_src_pin_parblock_dispatch_worker.
Print Assumptions C18_src_pin_parblock_queue_file_blocks.
Print Assumptions C18_src_pin_parblock_queue_file_range.
Print Assumptions C18_src_pin_operations_copy_file.
Print Assumptions C18_src_pin_parblock_copy.
Print Assumptions C18_src_pin_parfile_copy.
Print Assumptions C18_src_pin_main_main.
