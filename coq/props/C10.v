(* C10 — permissions, timestamps, xattrs and ownership are preserved as requested.
   Finalisation runs after the file's last write in every schedule: that is
   C06/C18's `finalise_after_last_write`. *)
From Coq Require Import String Permutation.
From XcpModel Require Import Base Meta Extracted Ops ConcBlock ConcOutcome.
From XcpProofs Require Import BaseProofs MetaProofs XMeta OpsProofs ConcOutcomeProofs PinnedSource XState.
From XcpPins Require Import Pin_common_copy_owner Pin_common_copy_permissions Pin_common_copy_timestamps
  Pin_operations_finalise_copy Pin_common_copy_xattr Pin_operations_new Pin_operations_drop Pin_parfile_copy_worker
  Pin_parblock_dispatch_worker Pin_parblock_queue_file_blocks Pin_operations_copy_file.

(* for ALL modes (0..07777 and beyond: masked), times, xattr sets, uid/gid and
   flag combinations, and any previous destination metadata *)
Theorem C10_meta_preserved : forall c src dst,
  let d' := finalise c src dst in
  (c_no_perms c = false -> m_mode d' = N.land (m_mode src) PERM_MASK) /\
  (c_no_perms c = false -> forall k v, last_binding (m_xattr src) k = Some v -> xattr_get (m_xattr d') k = Some v) /\
  (c_no_timestamps c = false -> m_mtime d' = m_mtime src /\ m_atime d' = m_atime src) /\
  (c_ownership c = true -> m_uid d' = m_uid src /\ m_gid d' = m_gid src) /\
  (c_no_perms c = true -> c_ownership c = false -> m_mode d' = m_mode dst) /\
  (c_no_perms c = true -> m_xattr d' = m_xattr dst) /\
  (c_no_timestamps c = true -> m_mtime d' = m_mtime dst /\ m_atime d' = m_atime dst) /\
  (c_ownership c = false -> m_uid d' = m_uid dst /\ m_gid d' = m_gid dst).
Proof.
  intros c src dst. cbn zeta. rewrite finalise_eq. cbn [m_mode m_uid m_gid m_atime m_mtime m_xattr].
  split; [now intros ->|]. split; [intros -> k v Hk; now rewrite set_xattrs_get, Hk|].
  split; [now intros ->|]. split; [now intros ->|]. split; [now intros -> ->|].
  split; [now intros ->|]. split; now intros ->.
Qed.

(* in particular: ownership no longer costs a permission bit *)
Theorem C10_ownership_keeps_setid : forall src dst nt fs,
  m_mode (finalise (mkFin false nt true fs) src dst) = N.land (m_mode src) PERM_MASK.
Proof. intros. now rewrite finalise_eq. Qed.

(* no-perms / no-timestamps issue no corresponding action at all *)
Theorem C10_flags_suppress_actions : forall c src,
  (c_no_perms c = true -> forall a, In a (finalise_actions c src) ->
     match a with FChmod _ | FSetxattr _ _ => False | _ => True end) /\
  (c_no_timestamps c = true -> forall a, In a (finalise_actions c src) ->
     match a with FUtimens _ _ => False | _ => True end) /\
  (c_ownership c = false -> forall a, In a (finalise_actions c src) ->
     match a with FChown _ _ => False | _ => True end).
Proof.
  intros c src. unfold finalise_actions. repeat split; intros ->; apply Forall_forall; by_segments; exact I.
Qed.

(* a fresh destination under --no-perms has the creation default, an existing one keeps its mode *)
Theorem C10_create_mode : forall umask m,
  k_create_mode umask (Some m) = m /\
  k_create_mode umask None = N.land 438 (PERM_MASK - N.land umask PERM_MASK).
Proof. intros; split; reflexivity. Qed.

(* the pinned tree violated the ownership clause (repaired; known_findings.jsonl) *)
Check ownership_clears_suid_refuted.

Example C10_nonvacuous :
  m_mode (finalise (mkFin false false true true) (mkMeta 3565 1000 100 5 6 [(1, 9)]) (mkMeta 420 0 0 0 0 [])) = 3565.
Proof. vm_compute. reflexivity. Qed.

(* ties to the current source: the model's definitions used above are EQUAL to what the translator (xlate/) extracts
   from the repository on this run *)
Theorem C10_src_finalise_order : forall c src,
  finalise_actions c src =
  flat_map (fun s => if step_enabled c s then actions_of_step (fst s) src else []) x_finalise_order.
Proof. exact x_finalise_order_ok. Qed.

(* a file's metadata is applied only after its last byte has been written, in EVERY schedule of parblock:
   the calls on file h are [open .. sizing .. clone .. every block's data] ++ [ownership, xattrs, mode, times, fsync] *)
Theorem C10_metadata_after_data_in_every_schedule : forall W Q ops s h js fc src dst e0 blk,
  reachable W Q ops s -> final s = true -> nth_error ops h = Some (OCopy js) ->
  ce_dst_exists e0 && ce_same_file e0 = false -> ce_cloned e0 = false ->
  exists bs A F,
    Permutation bs js /\
    flat_map (ev_actions fc src dst e0 blk) (events_of h (b_ev s)) = A ++ F /\
    existsb is_meta A = false /\ existsb data_or_sizing F = false.
Proof.
  intros W Q ops s h js fc src dst e0 blk Hr Hf Hn Hsame Hcl.
  destruct (parblock_file_calls W Q ops s h js fc src dst e0 blk Hr Hf Hn Hsame Hcl) as (bs & H & E).
  destruct (copy_actions_order fc src dst _ _ E) as (A & F & Hl & HA & HF & _).
  exists bs, A, F. auto.
Qed.

(* nothing is carried from one file of a run to the next: the inventory of process-wide state (statics,
   thread-locals, umask calls) of the current source, regenerated by the translator on every run *)
Theorem C10_src_no_state_carried_between_files :
  x_static_items = ["libxcp/src/backup.rs::BAK_REGEX"; "libxcp/src/operations.rs::BACKUP_STEP"]%string /\ x_thread_locals = [] /\ x_umask_calls = 0%N.
Proof. exact x_process_wide_state_ok. Qed.

(* the glue functions on this property's path that its hand-written model mirrors, token for token as the model was
   validated against them (DESIGN.md 0.3, pinned glue): an edit of one of them re-opens its obligation *)
Theorem C10_src_pin_common_copy_owner : pin_unchanged name_common_copy_owner.
Proof. exact pin_common_copy_owner. Qed.
Theorem C10_src_pin_common_copy_permissions : pin_unchanged name_common_copy_permissions.
Proof. exact pin_common_copy_permissions. Qed.
Theorem C10_src_pin_common_copy_timestamps : pin_unchanged name_common_copy_timestamps.
Proof. exact pin_common_copy_timestamps. Qed.
Theorem C10_src_pin_operations_finalise_copy : pin_unchanged name_operations_finalise_copy.
Proof. exact pin_operations_finalise_copy. Qed.
Theorem C10_src_pin_common_copy_xattr : pin_unchanged name_common_copy_xattr.
Proof. exact pin_common_copy_xattr. Qed.
Theorem C10_src_pin_operations_new : pin_unchanged name_operations_new.
Proof. exact pin_operations_new. Qed.
Theorem C10_src_pin_operations_drop : pin_unchanged name_operations_drop.
Proof. exact pin_operations_drop. Qed.
Theorem C10_src_pin_parfile_copy_worker : pin_unchanged name_parfile_copy_worker.
Proof. exact pin_parfile_copy_worker. Qed.
Theorem C10_src_pin_parblock_dispatch_worker : pin_unchanged name_parblock_dispatch_worker.
Proof. exact pin_parblock_dispatch_worker. Qed.
Theorem C10_src_pin_parblock_queue_file_blocks : pin_unchanged name_parblock_queue_file_blocks.
Proof. exact pin_parblock_queue_file_blocks. Qed.
Theorem C10_src_pin_operations_copy_file : pin_unchanged name_operations_copy_file.
Proof. exact pin_operations_copy_file. Qed.

Print Assumptions C10_meta_preserved.
Print Assumptions C10_ownership_keeps_setid.
Print Assumptions C10_flags_suppress_actions.
Print Assumptions C10_create_mode.
Print Assumptions C10_src_finalise_order.
Print Assumptions C10_metadata_after_data_in_every_schedule.
Print Assumptions C10_src_no_state_carried_between_files.
Print Assumptions C10_src_pin_common_copy_owner.
Print Assumptions C10_src_pin_common_copy_permissions.
Print Assumptions C10_src_pin_common_copy_timestamps.
Print Assumptions C10_src_pin_operations_finalise_copy.
Print Assumptions C10_src_pin_common_copy_xattr.
Print Assumptions C10_src_pin_operations_new.
Print Assumptions C10_src_pin_operations_drop.
Print Assumptions C10_src_pin_parfile_copy_worker.
Print Assumptions C10_src_pin_parblock_dispatch_worker.
Print Assumptions C10_src_pin_parblock_queue_file_blocks.
Print Assumptions C10_src_pin_operations_copy_file.
