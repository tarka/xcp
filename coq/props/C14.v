(* C14 — FIFOs, sockets and character devices are recreated as identical nodes. *)
From Coq Require Import String.
From XcpModel Require Import Base Meta Extracted DestMatrix.
From XcpProofs Require Import MetaProofs XMeta PinnedSource XState DestMatrixProofs.
From XcpPins Require Import Pin_linux_copy_node Pin_common_is_same_file Pin_parfile_copy_worker
  Pin_parblock_dispatch_worker Pin_main_main Pin_operations_tree_walker Pin_operations_new Pin_parfile_copy
  Pin_parblock_copy.

(* same type, permission bits limited by the umask, same device number, for
   all kinds, modes, umasks, majors and minors *)
Theorem C14_node_identical : forall umask src,
  n_type (copy_node umask src) = n_type src /\
  n_mode (copy_node umask src) = N.land (N.land (n_mode src) PERM_MASK) (PERM_MASK - N.land umask PERM_MASK) /\
  (n_type src = 5 -> n_rdev (copy_node umask src) = n_rdev src).
Proof. exact copy_node_spec. Qed.

(* sockets, FIFOs and character devices go to mknod (never opened); block
   devices and unknown kinds are errors *)
Theorem C14_classification : forall ft,
  (classify ft = OpSpecial <-> ft = 3 \/ ft = 4 \/ ft = 5) /\
  (ft = 6 \/ 7 <= ft -> classify ft = OpErrUnsupported).
Proof. exact classify_spec. Qed.

(* an existing entry is replaced unless no-clobber is set, in which case the
   worker fails without touching it *)
Theorem C14_replace_unless_noclobber : forall nc ex same umask src,
  (ex = true -> nc = true -> special_worker nc ex same umask src = None) /\
  (ex = true -> nc = false -> same = true -> special_worker nc ex same umask src = None) /\
  (ex = true -> nc = false -> same = false -> special_worker nc ex same umask src = Some [SpUnlink; SpMknod (copy_node umask src)]) /\
  (ex = false -> special_worker nc ex same umask src = Some [SpMknod (copy_node umask src)]).
Proof. exact special_worker_spec. Qed.

Example C14_nonvacuous : copy_node 18 (mkNode 5 420 (300 * 1048576 + 70000)) = mkNode 5 420 (300 * 1048576 + 70000).
Proof. vm_compute. reflexivity. Qed.

(* ties to the current source: the model's definitions used above are EQUAL to what the translator (xlate/) extracts
   from the repository on this run *)
Theorem C14_src_device_number_is_rdev : x_copy_node_uses_rdev = 1%N.
Proof. exact x_copy_node_uses_rdev_ok. Qed.

Theorem C14_src_special_arms : forall nc ex same umask src,
  special_code (special_worker nc ex same umask src) = x_parfile_special nc ex same /\
  special_code (special_worker nc ex same umask src) = x_parblock_special nc ex same.
Proof. exact x_special_ok. Qed.

(* a special file is never replaced by itself: when the existing target is the source node (an alias through a
   symlinked directory) the worker performs no action at all — repair 53f6ade *)
Theorem C14_never_unlinks_its_source : forall nc umask src, special_worker nc true true umask src = None.
Proof. exact special_worker_never_unlinks_source. Qed.

(* nothing is carried from one file of a run to the next: the inventory of process-wide state (statics,
   thread-locals, umask calls) of the current source, regenerated by the translator on every run *)
Theorem C14_src_no_state_carried_between_files :
  x_static_items = ["libxcp/src/backup.rs::BAK_REGEX"; "libxcp/src/operations.rs::BACKUP_STEP"]%string /\ x_thread_locals = [] /\ x_umask_calls = 0%N.
Proof. exact x_process_wide_state_ok. Qed.

(* what xcp does with what it finds at the mapped destination (DestMatrix.v; every cell compared with the binary
   on every run) *)
Theorem C14_special_replaces_or_is_refused : forall d o,
  dest_outcome SSpecial d o = Created \/ dest_outcome SSpecial d o = Refused.
Proof. exact special_replaces_or_is_refused. Qed.

(* the special-file row of the table is Meta.special_worker applied to Path::exists() of the entry (directories and
   entries exists() does not see apart) *)
Theorem C14_special_row_agrees : forall d o umask src,
  o <> ONoClobber -> is_real_dir d = false -> (lexists d = exists_follow d) ->
  (dest_outcome SSpecial d o = Refused <-> special_worker false (exists_follow d) false umask src = None).
Proof. exact special_row_agrees. Qed.

(* the destination's parent directory is missing: refused for every source kind whose creating call cannot make the
   ancestors (a failed step, never `the source vanished`); compared with the binary on every run *)
Theorem C14_parent_missing_refused_unless_directory : forall s, s <> SDir -> parent_missing_outcome s = Refused.
Proof. exact parent_missing_refused_unless_directory. Qed.

(* the glue functions on this property's path that its hand-written model mirrors, token for token as the model was
   validated against them (DESIGN.md 0.3, pinned glue): an edit of one of them re-opens its obligation *)
Theorem C14_src_pin_linux_copy_node : pin_unchanged name_linux_copy_node.
Proof. exact pin_linux_copy_node. Qed.
Theorem C14_src_pin_common_is_same_file : pin_unchanged name_common_is_same_file.
Proof. exact pin_common_is_same_file. Qed.
Theorem C14_src_pin_parfile_copy_worker : pin_unchanged name_parfile_copy_worker.
Proof. exact pin_parfile_copy_worker. Qed.
Theorem C14_src_pin_parblock_dispatch_worker : pin_unchanged name_parblock_dispatch_worker.
Proof. exact pin_parblock_dispatch_worker. Qed.
Theorem C14_src_pin_main_main : pin_unchanged name_main_main.
Proof. exact pin_main_main. Qed.
Theorem C14_src_pin_operations_tree_walker : pin_unchanged name_operations_tree_walker.
Proof. exact pin_operations_tree_walker. Qed.
Theorem C14_src_pin_operations_new : pin_unchanged name_operations_new.
Proof. exact pin_operations_new. Qed.
Theorem C14_src_pin_parfile_copy : pin_unchanged name_parfile_copy.
Proof. exact pin_parfile_copy. Qed.
Theorem C14_src_pin_parblock_copy : pin_unchanged name_parblock_copy.
Proof. exact pin_parblock_copy. Qed.

Print Assumptions C14_node_identical.
Print Assumptions C14_classification.
Print Assumptions C14_replace_unless_noclobber.
Print Assumptions C14_src_device_number_is_rdev.
Print Assumptions C14_src_special_arms.
Print Assumptions C14_never_unlinks_its_source.
Print Assumptions C14_src_no_state_carried_between_files.
Print Assumptions C14_special_replaces_or_is_refused.
Print Assumptions C14_special_row_agrees.
Print Assumptions C14_parent_missing_refused_unless_directory.
Print Assumptions C14_src_pin_linux_copy_node.
Print Assumptions C14_src_pin_common_is_same_file.
Print Assumptions C14_src_pin_parfile_copy_worker.
Print Assumptions C14_src_pin_parblock_dispatch_worker.
Print Assumptions C14_src_pin_main_main.
Print Assumptions C14_src_pin_operations_tree_walker.
Print Assumptions C14_src_pin_operations_new.
Print Assumptions C14_src_pin_parfile_copy.
Print Assumptions C14_src_pin_parblock_copy.
