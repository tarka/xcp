(* C04 — no silent failure.  The model of error propagation per operation:
   every action of CopyHandle::new and of the copy propagates with `?`; the
   finalisation runs in Drop.  Stated at full strength the property is false on
   this tree in ONE class (recorded in known_findings.jsonl, F-04): a failing
   fchmod / futimens / fsync of the finalisation is logged but does not change
   the exit status.  A second recorded class (F-04b) is outside this per-
   operation model: a failed stat inside Path::exists()/is_dir() probes reads
   as `absent`. *)
From Coq Require Import String.
From XcpModel Require Import Base Ops ConcFault Extracted CopyLoop Uspace.
From XcpProofs Require Import OpsProofs ConcFaultProofs PinnedSource XDrivers UspaceProofs XLoops.
From XcpPins Require Import Pin_parfile_copy Pin_parblock_copy Pin_common_allocate_file Pin_parfile_copy_worker
  Pin_parblock_dispatch_worker Pin_main_main Pin_mod_load_driver Pin_parblock_new Pin_parfile_new
  Pin_main_expand_globs Pin_main_expand_sources Pin_operations_tree_walker Pin_operations_new
  Pin_backup_get_backup_path Pin_backup_has_backup Pin_backup_is_num_backup Pin_backup_ls_file_dir
  Pin_backup_needs_backup Pin_backup_next_backup_num Pin_common_copy_owner Pin_common_copy_permissions
  Pin_common_copy_timestamps Pin_common_copy_xattr Pin_common_is_same_file Pin_common_sync Pin_feedback_new
  Pin_feedback_send Pin_linux_copy_file_bytes Pin_linux_copy_file_offset Pin_linux_copy_node Pin_linux_lseek
  Pin_linux_reflink Pin_linux_try_copy_file_range Pin_main_opts_check Pin_operations_copy_file Pin_operations_drop
  Pin_operations_finalise_copy Pin_parblock_queue_file_blocks Pin_parblock_queue_file_range Pin_paths_ignore_filter
  Pin_paths_parse_ignore.

(* a failing step outside the known class is always reported (error exit);
   xattr and ownership failures are the documented tolerated warnings *)
Theorem C04_fault_sound : forall l i a,
  nth_error l i = Some a -> known_class_04 a = false ->
  match a with ASetxattr _ | AChown _ => True | _ => snd (with_fault l i) = false end.
Proof. exact fault_outside_known_class_is_reported. Qed.

(* equivalently: exit status 0 after a fault means the failing action was a
   tolerated one or lies in the known class *)
Theorem C04_exit_ok_classified : forall l i,
  snd (with_fault l i) = true ->
  nth_error l i = None \/
  exists a, nth_error l i = Some a /\ (fault_effect_of a = FxTolerated \/ known_class_04 a = true).
Proof. exact fault_exit_ok_classified. Qed.

(* a tolerated failure does not skip the permission / timestamp / fsync steps *)
Theorem C04_tolerated_fault_continues : forall l i a b,
  nth_error l i = Some a -> fault_effect_of a = FxTolerated ->
  In b (skipn (S i) l) -> (match b with ASetxattr _ => False | _ => True end) ->
  In b (fst (with_fault l i)).
Proof. exact tolerated_fault_continues. Qed.

(* at the level of the whole run (ConcFault.v: every thread of both drivers, failures as labels): for
   EVERY interleaving and every number and placement of failing steps — in the walker, the dispatcher, an
   operation taken by a worker, a block job — the process exits with status 0 only if NO step failed, and
   then all the work has been done: nothing is left unwalked, queued or running.  (A failure is visible
   to main either as an Error update, which it acts on before it can see the channel close, or through
   the Err that the driver thread returns from its joins.) *)
Theorem C04_parblock_exit0_means_no_failure_and_complete : forall W Q ops s,
  xreachable W Q ops s -> x_main s = MExit true ->
  x_failed s = false /\ x_todo s = [] /\ x_fq s = [] /\ x_pq s = 0%nat /\ x_run s = 0%nat /\ x_disp s = XDone.
Proof. intros W Q ops s Hr. exact (xinv_exit_ok (xinv_reachable W Q ops s Hr)). Qed.

Theorem C04_parfile_exit0_means_no_failure_and_complete : forall W ops s,
  yreachable W ops s -> y_main s = MExit true ->
  y_failed s = false /\ y_todo s = [] /\ y_busy s = [] /\ ((1 <= W)%nat -> y_fq s = []).
Proof.
  intros W ops s Hr Hm. destruct (yinv_exit_ok (yinv_reachable W ops s Hr) Hm) as (? & ? & ? & ?). auto.
Qed.

(* the known class is genuinely violated (witness replayed on the real binary
   with an injected EIO on fsync: exit 0) *)
Check fault_in_finalisation_refuted.

(* Driver::copy, translated (the joins): the call returns Ok exactly when the walker and EVERY worker (parfile) /
   the walker and the dispatcher (parblock) returned Ok: no thread's error is dropped, whichever thread it is *)
Theorem C04_src_parfile_copy_reports_every_thread : forall walk workers,
  x_parfile_copy_result walk workers = None <-> walk = None /\ List.Forall (fun r => r = None) workers.
Proof. exact x_parfile_copy_ok_iff. Qed.

Theorem C04_src_parblock_copy_reports_every_thread : forall walk disp,
  x_parblock_copy_result walk disp = None <-> walk = None /\ disp = None.
Proof. exact x_parblock_copy_ok_iff. Qed.

(* the worker loops, translated: every kind of operation returns its failure from the worker (Copy and Link also send
   an Error update; a special file's only report is the worker's result), and nothing else happens on a failure path *)
Theorem C04_src_every_failure_is_returned :
  forall routes, List.In routes [x_parfile_error_routes; x_parblock_error_routes] ->
  List.map fst routes = [0; 1; 2]%N /\ forall k r, List.In (k, r) routes -> List.In 2%N r /\ ~ List.In 99%N r.
Proof. exact x_every_failure_is_returned. Qed.

(* main(), translated (the update loop and the join): an Error update anywhere in the stream makes the exit status
   non-zero whatever the driver thread returns — the only report of a failed block job of parblock *)
Theorem C04_src_error_update_reaches_exit : forall s1 e s2 handle,
  x_main_collect (s1 ++ XuError e :: s2) handle <> None.
Proof. exact x_error_update_reaches_exit. Qed.

Theorem C04_src_exit_status : forall stats handle,
  x_main_collect stats handle = None <-> has_error stats = false /\ handle = None.
Proof. exact x_main_collect_ok_iff. Qed.

(* end to end, from the translated pieces: a worker that returned an error — first, last or in between — makes
   the process exit status non-zero, whatever the updates *)
Theorem C04_src_parfile_worker_error_reaches_exit : forall stats walk ws1 e ws2,
  x_main_collect stats (x_parfile_copy_result walk (ws1 ++ Some e :: ws2)) <> None.
Proof. exact x_parfile_worker_error_reaches_exit. Qed.

(* the block job of parblock, translated: a failing kernel copy and a premature end of the source each send an Error
   update (the job's only report), which the translated main() turns into a non-zero exit status *)
Theorem C04_src_block_job_reports_failure :
  x_block_job_arms = [("Ok(0)ifoff+done>=harc.metadata.len()", 0); ("Ok(0)", 1); ("Ok(copied)", 2); ("Err(e)", 1)]%string%N.
Proof. exact x_block_job_arms_ok. Qed.

(* a block job that PANICS reports nothing (the pool respawns its thread, the dispatcher returns Ok): the user-space
   fall-back, the one place of the data path that slices a buffer, never slices out of range — the buffer the translated
   function allocates holds every read the translated loop issues, for every block size and every kernel answer *)
Theorem C04_src_fallback_buffer_holds_every_read : forall fuel nbytes off ans,
  reads_fit (x_copy_range_uspace_buf_len nbytes off) (u_trace (x_copy_range_uspace fuel nbytes off ans)).
Proof. exact x_range_buffer_holds_every_read. Qed.

Theorem C04_src_fallback_stream_buffer_holds_every_read : forall fuel nbytes rpos wpos ans,
  reads_fit (x_copy_bytes_uspace_buf_len nbytes) (u_trace (x_copy_bytes_uspace fuel nbytes rpos wpos ans)).
Proof. exact x_bytes_buffer_holds_every_read. Qed.

Example C04_fallback_reads_nonvacuous :
  u_trace (x_copy_range_uspace 5 300000 0 [XOk 200000; XOk 200000; XOk 100000; XOk 100000]) =
    [(URead 0 300000, XOk 200000); (UWrite 0 0 200000, XOk 200000); (URead 200000 100000, XOk 100000); (UWrite 200000 200000 100000, XOk 100000)]%N.
Proof. vm_compute. reflexivity. Qed.

Theorem C04_src_fallback_buffer_holds_every_write : forall fuel nbytes off ans,
  uans_bounded (u_trace (x_copy_range_uspace fuel nbytes off ans)) ->
  writes_fit (x_copy_range_uspace_buf_len nbytes off) (u_trace (x_copy_range_uspace fuel nbytes off ans)).
Proof. exact x_range_buffer_holds_every_write. Qed.

(* the inventory of panic sites in everything a pool job runs is closed: the job's own panic! under a failed send, and the
   two slices just shown to be in range *)
Theorem C04_src_pool_job_panic_sites :
  x_pool_job_panic_sites = [("parblock::queue_file_range(job)", "panic! under letErr(e)=stat_result");
                            ("common::copy_range_uspace", "buf[..next]"); ("common::copy_range_uspace", "buf[..rlen]")]%string.
Proof. exact x_pool_job_panic_sites_ok. Qed.

(* the glue functions on this property's path that its hand-written model mirrors, token for token as the model was
   validated against them (DESIGN.md 0.3, pinned glue): an edit of one of them re-opens its obligation *)
Theorem C04_src_pin_parfile_copy : pin_unchanged name_parfile_copy.
Proof. exact pin_parfile_copy. Qed.
Theorem C04_src_pin_parblock_copy : pin_unchanged name_parblock_copy.
Proof. exact pin_parblock_copy. Qed.
Theorem C04_src_pin_common_allocate_file : pin_unchanged name_common_allocate_file.
Proof. exact pin_common_allocate_file. Qed.
Theorem C04_src_pin_parfile_copy_worker : pin_unchanged name_parfile_copy_worker.
Proof. exact pin_parfile_copy_worker. Qed.
Theorem C04_src_pin_parblock_dispatch_worker : pin_unchanged name_parblock_dispatch_worker.
Proof. exact pin_parblock_dispatch_worker. Qed.
Theorem C04_src_pin_main_main : pin_unchanged name_main_main.
Proof. exact pin_main_main. Qed.
Theorem C04_src_pin_mod_load_driver : pin_unchanged name_mod_load_driver.
Proof. exact pin_mod_load_driver. Qed.
Theorem C04_src_pin_parblock_new : pin_unchanged name_parblock_new.
Proof. exact pin_parblock_new. Qed.
Theorem C04_src_pin_parfile_new : pin_unchanged name_parfile_new.
Proof. exact pin_parfile_new. Qed.
Theorem C04_src_pin_main_expand_globs : pin_unchanged name_main_expand_globs.
Proof. exact pin_main_expand_globs. Qed.
Theorem C04_src_pin_main_expand_sources : pin_unchanged name_main_expand_sources.
Proof. exact pin_main_expand_sources. Qed.
Theorem C04_src_pin_operations_tree_walker : pin_unchanged name_operations_tree_walker.
Proof. exact pin_operations_tree_walker. Qed.
Theorem C04_src_pin_operations_new : pin_unchanged name_operations_new.
Proof. exact pin_operations_new. Qed.
Theorem C04_src_pin_backup_get_backup_path : pin_unchanged name_backup_get_backup_path.
Proof. exact pin_backup_get_backup_path. Qed.
Theorem C04_src_pin_backup_has_backup : pin_unchanged name_backup_has_backup.
Proof. exact pin_backup_has_backup. Qed.
Theorem C04_src_pin_backup_is_num_backup : pin_unchanged name_backup_is_num_backup.
Proof. exact pin_backup_is_num_backup. Qed.
Theorem C04_src_pin_backup_ls_file_dir : pin_unchanged name_backup_ls_file_dir.
Proof. exact pin_backup_ls_file_dir. Qed.
Theorem C04_src_pin_backup_needs_backup : pin_unchanged name_backup_needs_backup.
Proof. exact pin_backup_needs_backup. Qed.
Theorem C04_src_pin_backup_next_backup_num : pin_unchanged name_backup_next_backup_num.
Proof. exact pin_backup_next_backup_num. Qed.
Theorem C04_src_pin_common_copy_owner : pin_unchanged name_common_copy_owner.
Proof. exact pin_common_copy_owner. Qed.
Theorem C04_src_pin_common_copy_permissions : pin_unchanged name_common_copy_permissions.
Proof. exact pin_common_copy_permissions. Qed.
Theorem C04_src_pin_common_copy_timestamps : pin_unchanged name_common_copy_timestamps.
Proof. exact pin_common_copy_timestamps. Qed.
Theorem C04_src_pin_common_copy_xattr : pin_unchanged name_common_copy_xattr.
Proof. exact pin_common_copy_xattr. Qed.
Theorem C04_src_pin_common_is_same_file : pin_unchanged name_common_is_same_file.
Proof. exact pin_common_is_same_file. Qed.
Theorem C04_src_pin_common_sync : pin_unchanged name_common_sync.
Proof. exact pin_common_sync. Qed.
Theorem C04_src_pin_feedback_new : pin_unchanged name_feedback_new.
Proof. exact pin_feedback_new. Qed.
Theorem C04_src_pin_feedback_send : pin_unchanged name_feedback_send.
Proof. exact pin_feedback_send. Qed.
Theorem C04_src_pin_linux_copy_file_bytes : pin_unchanged name_linux_copy_file_bytes.
Proof. exact pin_linux_copy_file_bytes. Qed.
Theorem C04_src_pin_linux_copy_file_offset : pin_unchanged name_linux_copy_file_offset.
Proof. exact pin_linux_copy_file_offset. Qed.
Theorem C04_src_pin_linux_copy_node : pin_unchanged name_linux_copy_node.
Proof. exact pin_linux_copy_node. Qed.
Theorem C04_src_pin_linux_lseek : pin_unchanged name_linux_lseek.
Proof. exact pin_linux_lseek. Qed.
Theorem C04_src_pin_linux_reflink : pin_unchanged name_linux_reflink.
Proof. exact pin_linux_reflink. Qed.
Theorem C04_src_pin_linux_try_copy_file_range : pin_unchanged name_linux_try_copy_file_range.
Proof. exact pin_linux_try_copy_file_range. Qed.
Theorem C04_src_pin_main_opts_check : pin_unchanged name_main_opts_check.
Proof. exact pin_main_opts_check. Qed.
Theorem C04_src_pin_operations_copy_file : pin_unchanged name_operations_copy_file.
Proof. exact pin_operations_copy_file. Qed.
Theorem C04_src_pin_operations_drop : pin_unchanged name_operations_drop.
Proof. exact pin_operations_drop. Qed.
Theorem C04_src_pin_operations_finalise_copy : pin_unchanged name_operations_finalise_copy.
Proof. exact pin_operations_finalise_copy. Qed.
Theorem C04_src_pin_parblock_queue_file_blocks : pin_unchanged name_parblock_queue_file_blocks.
Proof. exact pin_parblock_queue_file_blocks. Qed.
Theorem C04_src_pin_parblock_queue_file_range : pin_unchanged name_parblock_queue_file_range.
Proof. exact pin_parblock_queue_file_range. Qed.
Theorem C04_src_pin_paths_ignore_filter : pin_unchanged name_paths_ignore_filter.
Proof. exact pin_paths_ignore_filter. Qed.
Theorem C04_src_pin_paths_parse_ignore : pin_unchanged name_paths_parse_ignore.
Proof. exact pin_paths_parse_ignore. Qed.

Print Assumptions C04_fault_sound.
Print Assumptions C04_exit_ok_classified.
Print Assumptions C04_tolerated_fault_continues.
Print Assumptions C04_parblock_exit0_means_no_failure_and_complete.
Print Assumptions C04_parfile_exit0_means_no_failure_and_complete.
Print Assumptions C04_src_parfile_copy_reports_every_thread.
Print Assumptions C04_src_parblock_copy_reports_every_thread.
Print Assumptions C04_src_every_failure_is_returned.
Print Assumptions C04_src_error_update_reaches_exit.
Print Assumptions C04_src_exit_status.
Print Assumptions C04_src_parfile_worker_error_reaches_exit.
Print Assumptions C04_src_block_job_reports_failure.
Print Assumptions C04_src_fallback_buffer_holds_every_read.
Print Assumptions C04_src_fallback_stream_buffer_holds_every_read.
Print Assumptions C04_src_fallback_buffer_holds_every_write.
Print Assumptions C04_src_pool_job_panic_sites.
Print Assumptions C04_src_pin_parfile_copy.
Print Assumptions C04_src_pin_parblock_copy.
Print Assumptions C04_src_pin_common_allocate_file.
Print Assumptions C04_src_pin_parfile_copy_worker.
Print Assumptions C04_src_pin_parblock_dispatch_worker.
Print Assumptions C04_src_pin_main_main.
Print Assumptions C04_src_pin_mod_load_driver.
Print Assumptions C04_src_pin_parblock_new.
Print Assumptions C04_src_pin_parfile_new.
Print Assumptions C04_src_pin_main_expand_globs.
Print Assumptions C04_src_pin_main_expand_sources.
Print Assumptions C04_src_pin_operations_tree_walker.
Print Assumptions C04_src_pin_operations_new.
Print Assumptions C04_src_pin_backup_get_backup_path.
Print Assumptions C04_src_pin_backup_has_backup.
Print Assumptions C04_src_pin_backup_is_num_backup.
Print Assumptions C04_src_pin_backup_ls_file_dir.
Print Assumptions C04_src_pin_backup_needs_backup.
Print Assumptions C04_src_pin_backup_next_backup_num.
Print Assumptions C04_src_pin_common_copy_owner.
Print Assumptions C04_src_pin_common_copy_permissions.
Print Assumptions C04_src_pin_common_copy_timestamps.
Print Assumptions C04_src_pin_common_copy_xattr.
Print Assumptions C04_src_pin_common_is_same_file.
Print Assumptions C04_src_pin_common_sync.
Print Assumptions C04_src_pin_feedback_new.
Print Assumptions C04_src_pin_feedback_send.
Print Assumptions C04_src_pin_linux_copy_file_bytes.
Print Assumptions C04_src_pin_linux_copy_file_offset.
Print Assumptions C04_src_pin_linux_copy_node.
Print Assumptions C04_src_pin_linux_lseek.
Print Assumptions C04_src_pin_linux_reflink.
Print Assumptions C04_src_pin_linux_try_copy_file_range.
Print Assumptions C04_src_pin_main_opts_check.
Print Assumptions C04_src_pin_operations_copy_file.
Print Assumptions C04_src_pin_operations_drop.
Print Assumptions C04_src_pin_operations_finalise_copy.
Print Assumptions C04_src_pin_parblock_queue_file_blocks.
Print Assumptions C04_src_pin_parblock_queue_file_range.
Print Assumptions C04_src_pin_paths_ignore_filter.
Print Assumptions C04_src_pin_paths_parse_ignore.
