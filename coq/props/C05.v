(* C05 — correct under short I/O counts and absent kernel copy/clone/extent
   support.  The data-path theorems quantify over EVERY answer sequence
   (`ans : list xans`): any mix of full counts, short counts (down to 1 byte),
   zero counts, errors and fall-backs. *)
From Coq Require Import String Permutation.
From XcpModel Require Import Base Sparse CopyLoop Uspace FileCopy Extracted Ops.
From XcpProofs Require Import CopyLoopProofs UspaceProofs FileCopyProofs XExtents XBlocks XLoops PinnedSource XOps
  XDrivers.
From XcpPins Require Import Pin_linux_try_copy_file_range Pin_linux_copy_file_bytes Pin_linux_copy_file_offset
  Pin_linux_reflink Pin_main_main Pin_parblock_queue_file_blocks Pin_operations_copy_file
  Pin_parblock_queue_file_range Pin_linux_lseek Pin_operations_new Pin_common_allocate_file
  Pin_parblock_dispatch_worker Pin_parfile_copy_worker.

(* user-space pread/pwrite loop: Ok means the whole range was moved, aligned;
   (a short write or premature EOF is an error by the definition of the loop) *)
Theorem C05_uspace_range_exact : forall fuel nbytes off ans,
  let o := copy_range_uspace fuel nbytes off 0 ans in
  u_st o = StOk -> uans_bounded (u_trace o) ->
  u_ret o = nbytes /\ aligned (moves (u_trace o)) /\
  forall i, covered_by (moves (u_trace o)) i <-> off <= i < off + nbytes.
Proof.
  intros fuel nbytes off ans. apply moves_exact. rewrite <- (N.add_0_r off) at 1. apply copy_range_uspace_moves.
Qed.

(* user-space read/write_all loop, with EINTR retries and short reads/writes *)
Theorem C05_uspace_bytes_exact : forall fuel nbytes cur ans,
  let o := copy_bytes_uspace fuel nbytes cur cur 0 ans in
  u_st o = StOk -> uans_bounded (u_trace o) ->
  u_ret o = nbytes /\ aligned (moves (u_trace o)) /\
  forall i, covered_by (moves (u_trace o)) i <-> cur <= i < cur + nbytes.
Proof. intros fuel nbytes cur ans. apply moves_exact, copy_bytes_uspace_moves. reflexivity. Qed.

(* parfile under any answer sequence: exit-0 status implies byte-exact; bytes
   are never duplicated or misplaced (every written byte i holds source byte i) *)
Theorem C05_parfile : forall fuel bs m len sparse clone L ans,
  layout_ok 0 len L ->
  let o := parfile_copy_file fuel bs m len sparse clone (k_seek_data L len) (k_seek_hole L len) ans in
  f_st o = StOk -> f_cloned o = false -> ans_bounded (f_trace o) ->
  forall i,
    (sparse = false -> (i < len -> src_of (f_trace o) i = Some i) /\ (len <= i -> src_of (f_trace o) i = None)) /\
    (sparse = true -> (in_data L i -> src_of (f_trace o) i = Some i) /\ (~ in_data L i -> src_of (f_trace o) i = None)).
Proof. exact parfile_file_exact. Qed.

(* parblock (after the repair of the block job): same, for every completion order *)
Theorem C05_parblock : forall bs m len sparse clone mx ans,
  0 < bs ->
  let o := parblock_copy_file bs m len sparse clone mx ans in
  f_st o = StOk -> f_cloned o = false -> ans_bounded (f_trace o) ->
  exists ranges, pb_ranges len sparse mx = (StOk, ranges) /\
  forall tr', Permutation (f_trace o) tr' ->
  forall i,
    (in_ranges ranges i -> i < len -> src_of tr' i = Some i) /\
    (~ in_ranges ranges i -> src_of tr' i = None).
Proof. exact parblock_file_exact. Qed.

(* a block job never reports success with bytes of its block missing *)
Theorem C05_block_job_complete : forall fuel flen off bytes ans,
  let o := block_job fuel flen off bytes 0 ans in
  o_st o = StOk -> ans_bounded (o_trace o) ->
  forall i, off <= i < off + bytes -> i < flen -> covered_by (o_trace o) i.
Proof.
  intros fuel flen off bytes ans o Hst Hb i Hi Hlt.
  apply (block_job_exact fuel flen off bytes 0 ans (N.le_0_l _) Hst Hb); lia.
Qed.

(* extent map unsupported -> whole file is queued *)
Theorem C05_fiemap_unsupported_whole_file : forall len sparse,
  pb_ranges len sparse MxNone = (StOk, [(0, len)]).
Proof. intros len [|]; reflexivity. Qed.

(* errno classifications (try_copy_file_range, reflink) *)
Theorem C05_cfr_fallback_errnos : forall e,
  cfr_falls_back e = true <-> e = ENOSYS \/ e = EPERM \/ e = EXDEV.
Proof.
  intros e. unfold cfr_falls_back. rewrite !orb_true_iff, !N.eqb_eq. tauto.
Qed.

Theorem C05_clone_unsupported_errnos : forall e,
  classify_clone e = ClUnsup <-> e = EOPNOTSUPP \/ e = EINVAL \/ e = EXDEV \/ e = ETXTBSY.
Proof. exact classify_clone_unsup. Qed.

(* non-vacuity: short counts, an EINTR and a short write in one user-space copy *)
Example C05_nonvacuous :
  let o := copy_bytes_uspace 20 10 0 0 0 [XOk 4; XOk 3; XOk 1; XErr EINTR; XOk 6; XErr EINTR; XOk 6] in
  u_st o = StOk /\ u_ret o = 10.
Proof. vm_compute. split; reflexivity. Qed.

(* the pinned tree violated the property (replayed on the real binary; repaired
   by the commit recorded in known_findings.jsonl) *)
Check block_job_pinned_short_refuted.

(* ties to the current source: the model's definitions used above are EQUAL to what the translator (xlate/) extracts
   from the repository on this run *)
Theorem C05_src_cfr_fallback_errnos : forall e, existsb (N.eqb e) x_cfr_fallback_errnos = cfr_falls_back e.
Proof. exact x_cfr_fallback_ok. Qed.

Theorem C05_src_fiemap_unsupported : x_fiemap_unsupported_errnos = [EOPNOTSUPP].
Proof. exact x_fiemap_unsupported_ok. Qed.

Theorem C05_src_block_job_step : forall f flen off bytes done k rest,
  block_job (S f) flen off bytes done (XOk k :: rest) =
  let req := mkReq (x_block_job_offset off done) (x_block_job_offset off done) (x_block_job_request bytes done) in
  if k =? 0 then mkOut (if x_block_job_zero_is_end flen off done then StOk else StErr EPREMATURE) [(req, XOk 0)] rest
  else if x_block_job_complete (done + k) bytes then mkOut StOk [(req, XOk k)] rest
  else out_cons (req, XOk k) (block_job f flen off bytes (done + k) rest).
Proof. exact x_block_job_ok. Qed.

(* the two user-space copy loops of libfs, TRANSLATED from the current source (while loop -> fuelled fixpoint, each
   pread/pwrite/read/write consumes one kernel answer and logs one event, `return Err` / `continue` as written),
   are equal to the models every theorem above is about — for all fuel, sizes, offsets and answer sequences *)
Theorem C05_src_copy_range_uspace_loop : forall fuel nbytes off ans,
  x_copy_range_uspace fuel nbytes off ans = copy_range_uspace fuel nbytes off 0 ans.
Proof. exact x_copy_range_uspace_ok. Qed.

Theorem C05_src_copy_bytes_uspace_loop : forall fuel nbytes rpos wpos ans,
  x_copy_bytes_uspace fuel nbytes rpos wpos ans = copy_bytes_uspace fuel nbytes rpos wpos 0 ans.
Proof. exact x_copy_bytes_uspace_ok. Qed.

(* parblock::queue_file_blocks, translated: the fallback when the extent map is unsupported (42 extent map, 43 merge, 44 queue a range, 45 queue the whole file) *)
Theorem C05_src_queue_file_blocks_steps : x_queue_file_blocks_steps = queue_file_blocks_steps.
Proof. exact x_queue_file_blocks_steps_ok. Qed.

(* main(), translated (the update loop and the join): an Error update anywhere in the stream makes the exit status
   non-zero whatever the driver thread returns — the only report of a failed block job of parblock *)
Theorem C05_src_error_update_reaches_exit : forall s1 e s2 handle,
  x_main_collect (s1 ++ XuError e :: s2) handle <> None.
Proof. exact x_error_update_reaches_exit. Qed.

Theorem C05_src_exit_status : forall stats handle,
  x_main_collect stats handle = None <-> has_error stats = false /\ handle = None.
Proof. exact x_main_collect_ok_iff. Qed.

(* the block job of parblock, translated: a failing kernel copy and a premature end of the source each send an Error
   update (the job's only report), which the translated main() turns into a non-zero exit status *)
Theorem C05_src_block_job_reports_failure :
  x_block_job_arms = [("Ok(0)ifoff+done>=harc.metadata.len()", 0); ("Ok(0)", 1); ("Ok(copied)", 2); ("Err(e)", 1)]%string%N.
Proof. exact x_block_job_arms_ok. Qed.

(* the glue functions on this property's path that its hand-written model mirrors, token for token as the model was
   validated against them (DESIGN.md 0.3, pinned glue): an edit of one of them re-opens its obligation *)
Theorem C05_src_pin_linux_try_copy_file_range : pin_unchanged name_linux_try_copy_file_range.
Proof. exact pin_linux_try_copy_file_range. Qed.
Theorem C05_src_pin_linux_copy_file_bytes : pin_unchanged name_linux_copy_file_bytes.
Proof. exact pin_linux_copy_file_bytes. Qed.
Theorem C05_src_pin_linux_copy_file_offset : pin_unchanged name_linux_copy_file_offset.
Proof. exact pin_linux_copy_file_offset. Qed.
Theorem C05_src_pin_linux_reflink : pin_unchanged name_linux_reflink.
Proof. exact pin_linux_reflink. Qed.
Theorem C05_src_pin_main_main : pin_unchanged name_main_main.
Proof. exact pin_main_main. Qed.
Theorem C05_src_pin_parblock_queue_file_blocks : pin_unchanged name_parblock_queue_file_blocks.
Proof. exact pin_parblock_queue_file_blocks. Qed.
Theorem C05_src_pin_operations_copy_file : pin_unchanged name_operations_copy_file.
Proof. exact pin_operations_copy_file. Qed.
Theorem C05_src_pin_parblock_queue_file_range : pin_unchanged name_parblock_queue_file_range.
Proof. exact pin_parblock_queue_file_range. Qed.
Theorem C05_src_pin_linux_lseek : pin_unchanged name_linux_lseek.
Proof. exact pin_linux_lseek. Qed.
Theorem C05_src_pin_operations_new : pin_unchanged name_operations_new.
Proof. exact pin_operations_new. Qed.
Theorem C05_src_pin_common_allocate_file : pin_unchanged name_common_allocate_file.
Proof. exact pin_common_allocate_file. Qed.
Theorem C05_src_pin_parblock_dispatch_worker : pin_unchanged name_parblock_dispatch_worker.
Proof. exact pin_parblock_dispatch_worker. Qed.
Theorem C05_src_pin_parfile_copy_worker : pin_unchanged name_parfile_copy_worker.
Proof. exact pin_parfile_copy_worker. Qed.

Print Assumptions C05_uspace_range_exact.
Print Assumptions C05_uspace_bytes_exact.
Print Assumptions C05_parfile.
Print Assumptions C05_parblock.
Print Assumptions C05_block_job_complete.
Print Assumptions C05_fiemap_unsupported_whole_file.
Print Assumptions C05_cfr_fallback_errnos.
Print Assumptions C05_clone_unsupported_errnos.
Print Assumptions C05_src_cfr_fallback_errnos.
Print Assumptions C05_src_fiemap_unsupported.
Print Assumptions C05_src_block_job_step.
Print Assumptions C05_src_copy_range_uspace_loop.
Print Assumptions C05_src_copy_bytes_uspace_loop.
Print Assumptions C05_src_queue_file_blocks_steps.
Print Assumptions C05_src_error_update_reaches_exit.
Print Assumptions C05_src_exit_status.
Print Assumptions C05_src_block_job_reports_failure.
Print Assumptions C05_src_pin_linux_try_copy_file_range.
Print Assumptions C05_src_pin_linux_copy_file_bytes.
Print Assumptions C05_src_pin_linux_copy_file_offset.
Print Assumptions C05_src_pin_linux_reflink.
Print Assumptions C05_src_pin_main_main.
Print Assumptions C05_src_pin_parblock_queue_file_blocks.
Print Assumptions C05_src_pin_operations_copy_file.
Print Assumptions C05_src_pin_parblock_queue_file_range.
Print Assumptions C05_src_pin_linux_lseek.
Print Assumptions C05_src_pin_operations_new.
Print Assumptions C05_src_pin_common_allocate_file.
Print Assumptions C05_src_pin_parblock_dispatch_worker.
Print Assumptions C05_src_pin_parfile_copy_worker.
