(* C07 — xcp always terminates: no deadlock, no spin, with or without errors.

   ConcFault.v models every thread of a run (main's update loop, the driver
   thread's joins, walker, dispatcher, bounded pool queue, pool workers /
   parfile workers) with FAILURES as labels, so the theorems quantify over every
   interleaving and every number and placement of failing steps, any W >= 1
   workers and any pool queue bound Q >= 1.  Termination = (a) no reachable
   state is stuck before main has exited, and (b) every step strictly decreases
   a measure that is bounded by the size of the workload, so every execution is
   finite.  (c) bounds the kernel-call loops inside one operation.
   Outside the theorems: that each system call returns, OS scheduler fairness,
   and the crossbeam / thread-pool primitives themselves. *)
From XcpModel Require Import Base ConcBlock ConcFile ConcFault CopyLoop Uspace Extracted DestMatrix.
From XcpProofs Require Import ConcBlockProofs ConcFileProofs ConcFaultProofs CopyLoopProofs UspaceProofs XLoops
  XConfig PinnedSource XDrivers DestMatrixProofs.
From XcpPins Require Import Pin_feedback_new Pin_parfile_copy Pin_parblock_copy Pin_main_main Pin_paths_parse_ignore
  Pin_parblock_queue_file_range Pin_parfile_copy_worker Pin_parblock_dispatch_worker Pin_parblock_queue_file_blocks
  Pin_backup_get_backup_path Pin_backup_next_backup_num Pin_backup_ls_file_dir Pin_backup_has_backup
  Pin_backup_needs_backup Pin_operations_new Pin_operations_copy_file Pin_operations_tree_walker
  Pin_backup_is_num_backup Pin_common_allocate_file Pin_common_copy_owner Pin_common_copy_permissions
  Pin_common_copy_timestamps Pin_common_copy_xattr Pin_common_is_same_file Pin_common_sync Pin_feedback_send
  Pin_linux_copy_file_bytes Pin_linux_copy_file_offset Pin_linux_copy_node Pin_linux_lseek Pin_linux_reflink
  Pin_linux_try_copy_file_range Pin_main_expand_globs Pin_main_expand_sources Pin_main_opts_check Pin_mod_load_driver
  Pin_operations_drop Pin_operations_finalise_copy Pin_parblock_new Pin_parfile_new Pin_paths_ignore_filter.

(* (a) parblock and parfile, with failures: some thread can always move *)
Theorem C07_parblock_no_deadlock : forall W Q ops s, (1 <= W)%nat -> (1 <= Q)%nat ->
  xreachable W Q ops s -> x_main s = MLoop -> exists l s', xstep W Q s l = Some s'.
Proof. intros W Q ops s HW HQ _. exact (x_no_deadlock W Q s HW HQ). Qed.

Theorem C07_parfile_no_deadlock : forall W ops s,
  yreachable W ops s -> y_main s = MLoop -> exists l s', ystep s l = Some s'.
Proof. intros W ops s _. exact (y_no_deadlock s). Qed.

(* (b) no spin: every execution from the initial state has at most
   xmeasure (xinit ops) steps, a number that depends on the workload only *)
Theorem C07_parblock_bounded : forall W Q ops ls s',
  xrun W Q (xinit ops) ls = Some s' -> (length ls <= xmeasure (xinit ops))%nat.
Proof. intros W Q ops ls s' H. pose proof (xbounded W Q ls _ _ H). lia. Qed.

Theorem C07_parfile_bounded : forall W ops ls s',
  yrun (yinit W ops) ls = Some s' -> (length ls <= ymeasure (yinit W ops))%nat.
Proof. intros W ops ls s' H. pose proof (ybounded ls _ _ H). lia. Qed.

(* once main has exited nothing moves any more (the process is gone) *)
Theorem C07_exit_is_final : forall W Q s l ok, x_main s = MExit ok -> xstep W Q s l = None.
Proof. intros W Q s l ok H. unfold xstep. now rewrite H. Qed.

(* the fault-free protocol with per-file detail: no deadlock, and every run of n steps lowers the measure by n *)
Theorem C07_parblock_detail_no_deadlock : forall W Q ops s, (1 <= W)%nat -> (1 <= Q)%nat ->
  reachable W Q ops s -> final s = false -> exists l s', step W Q s l = Some s'.
Proof. intros W Q ops s HW HQ Hr. exact (no_deadlock W Q s HW HQ (inv_reachable W Q ops s Hr)). Qed.

Theorem C07_parblock_detail_steps : forall W Q ls s s',
  run_labels W Q s ls = Some s' -> (length ls + measure s' = measure s)%nat.
Proof. exact bounded_steps. Qed.

Theorem C07_parfile_detail_no_deadlock : forall W ops s, (1 <= W)%nat ->
  freachable W ops s -> ffinal s = false -> exists l s', fstep W s l = Some s'.
Proof. intros W ops s HW _. exact (parfile_no_deadlock W s HW). Qed.

(* (c) the cursor loop issues at most len - w kernel requests for EVERY answer
   sequence (a zero-byte answer is an error since `fix: copy_bytes fails
   instead of spinning`), and a block job never runs out of fuel *)
Theorem C07_copy_bytes_bounded : forall fuel bs len w cur ans,
  (N.of_nat (length (o_trace (copy_bytes fuel bs len w cur ans))) <= len - w)%N.
Proof. exact copy_bytes_steps. Qed.

Theorem C07_copy_bytes_fuel : forall fuel bs len w cur ans,
  (length ans < fuel)%nat -> o_st (copy_bytes fuel bs len w cur ans) <> StOutOfFuel.
Proof. exact copy_bytes_fuel. Qed.

Theorem C07_block_job_fuel : forall fuel flen off bytes done ans,
  (length ans < fuel)%nat -> o_st (block_job fuel flen off bytes done ans) <> StOutOfFuel.
Proof. exact block_job_fuel. Qed.

(* the number of kernel requests of a block job is bounded by its block, whatever the kernel answers *)
Theorem C07_block_job_bounded : forall fuel flen off bytes done ans,
  (N.of_nat (length (o_trace (block_job fuel flen off bytes done ans))) <= (bytes - done) + 1)%N.
Proof. exact block_job_steps. Qed.

(* the sparse walk (parfile, sparse source) needs at most len - pos rounds for ANY answers of lseek / fstat / the
   copy calls — including those a source that shrinks while it is copied produces (repair 61ae7c3) ... *)
Theorem C07_copy_sparse_terminates : forall fuel bs len pos sd sh ans,
  (N.to_nat (len - pos) < fuel)%nat -> o_st (copy_sparse fuel bs len pos sd sh ans) <> StOutOfFuel.
Proof. exact copy_sparse_fuel. Qed.

(* ... which the walk as it was before that repair did not: it spins on the answers of a shrunken source *)
Theorem C07_copy_sparse_before_repair_refuted : exists bs len sd sh, forall fuel,
  o_st (copy_sparse_pinned fuel bs len 0 sd sh []) = StOutOfFuel.
Proof. exact copy_sparse_pinned_spins. Qed.

(* the user-space fallbacks: at most two calls per outstanding byte (a zero-byte read is an error, not a retry);
   EINTR retries of the cursor variant are std's and are not counted *)
Theorem C07_copy_range_uspace_bounded : forall fuel nbytes off w ans,
  (N.of_nat (length (u_trace (copy_range_uspace fuel nbytes off w ans))) <= 2 * (nbytes - w))%N.
Proof. exact copy_range_uspace_steps. Qed.

Theorem C07_copy_bytes_uspace_bounded : forall fuel nbytes rpos wpos w ans,
  uans_bounded (u_trace (copy_bytes_uspace fuel nbytes rpos wpos w ans)) ->
  (N.of_nat (length (effective (u_trace (copy_bytes_uspace fuel nbytes rpos wpos w ans)))) <= 2 * (nbytes - w))%N.
Proof. exact copy_bytes_uspace_steps. Qed.

(* the loops above ARE the repository's: each is translated from the current source by xlate/ and proved equal
   to the model, so deleting a zero-progress arm or guard re-opens the obligation *)
Theorem C07_src_copy_bytes_loop : forall fuel bs len cur ans,
  x_copy_bytes fuel len bs cur ans = copy_bytes fuel bs len 0 cur ans.
Proof. exact x_copy_bytes_ok. Qed.

Theorem C07_src_copy_sparse_loop : forall fuel sd sh flen bs ans,
  x_copy_sparse fuel sd sh flen bs ans = copy_sparse fuel bs flen 0 sd sh ans.
Proof. exact x_copy_sparse_ok. Qed.

Theorem C07_src_copy_range_uspace_loop : forall fuel nbytes off ans,
  x_copy_range_uspace fuel nbytes off ans = copy_range_uspace fuel nbytes off 0 ans.
Proof. exact x_copy_range_uspace_ok. Qed.

Theorem C07_src_copy_bytes_uspace_loop : forall fuel nbytes rpos wpos ans,
  x_copy_bytes_uspace fuel nbytes rpos wpos ans = copy_bytes_uspace fuel nbytes rpos wpos 0 ans.
Proof. exact x_copy_bytes_uspace_ok. Qed.

(* non-vacuity: a run in which the dispatcher fails on the second file while a
   job of the first is still queued, and a job fails: main still exits, with
   status 1 *)
Example C07_nonvacuous :
  exists s, xrun 2 1 (xinit [OCopy [0%nat; 1%nat]; OCopy [0%nat]; OInline])
    [XWalk; XWalk; XDisp; XDisp; XTake; XDisp; XDisp; XDispFail false; XWalk; XJobDone true; XTake; XJobDone false;
     XDrv; XMain] = Some s /\ x_main s = MExit false.
Proof. eexists. split; [vm_compute; reflexivity|reflexivity]. Qed.

(* the worker count both drivers start with is >= 1 whatever -w says (0 = one per CPU; a machine has >= 1): the
   hypothesis `1 <= W` of the driver theorems, from the two translated definitions *)
Theorem C07_src_workers_at_least_one : forall w ncpus, (1 <= ncpus)%N -> (1 <= x_num_workers (x_config_workers w ncpus) ncpus)%N.
Proof. exact x_workers_at_least_one. Qed.

(* Driver::copy, translated (the joins): the call returns Ok exactly when the walker and EVERY worker (parfile) /
   the walker and the dispatcher (parblock) returned Ok: no thread's error is dropped, whichever thread it is *)
Theorem C07_src_parfile_copy_reports_every_thread : forall walk workers,
  x_parfile_copy_result walk workers = None <-> walk = None /\ List.Forall (fun r => r = None) workers.
Proof. exact x_parfile_copy_ok_iff. Qed.

Theorem C07_src_parblock_copy_reports_every_thread : forall walk disp,
  x_parblock_copy_result walk disp = None <-> walk = None /\ disp = None.
Proof. exact x_parblock_copy_ok_iff. Qed.

(* main(), translated (the update loop and the join): an Error update anywhere in the stream makes the exit status
   non-zero whatever the driver thread returns — the only report of a failed block job of parblock *)
Theorem C07_src_error_update_reaches_exit : forall s1 e s2 handle,
  x_main_collect (s1 ++ XuError e :: s2) handle <> None.
Proof. exact x_error_update_reaches_exit. Qed.

Theorem C07_src_exit_status : forall stats handle,
  x_main_collect stats handle = None <-> has_error stats = false /\ handle = None.
Proof. exact x_main_collect_ok_iff. Qed.

(* the XMain and XDrv steps of the protocol model (ConcFault.v) compute what the translated main() and
   Driver::copy compute: the model's exit status IS the code's *)
Theorem C07_src_model_main_step_is_translated_main : forall (errs : nat) (r : bool) stats handle,
  has_error stats = Nat.ltb 0 errs -> (handle = None <-> r = true) ->
  (x_main_collect stats handle = None <-> (if Nat.ltb 0 errs then false else r) = true).
Proof. exact model_main_step_is_translated_main. Qed.

Theorem C07_src_model_driver_step_is_translated_copy : forall (walk_ok : bool) (workers_ok : list bool) walk workers,
  (walk = None <-> walk_ok = true) -> List.Forall2 (fun r b => r = None <-> b = true) workers workers_ok ->
  (x_parfile_copy_result walk workers = None <-> walk_ok && List.forallb (fun b => b) workers_ok = true).
Proof. exact model_driver_step_is_translated_copy. Qed.

(* what xcp does with what it finds at the mapped destination (DestMatrix.v; every cell compared with the binary
   on every run) *)
Theorem C07_only_a_fifo_at_the_destination_can_make_it_wait : forall s d o,
  dest_outcome s d o = Blocks -> s = SFile /\ d = DSpecial /\ o = ONone.
Proof. exact blocks_only_file_onto_fifo. Qed.

(* the glue functions on this property's path that its hand-written model mirrors, token for token as the model was
   validated against them (DESIGN.md 0.3, pinned glue): an edit of one of them re-opens its obligation *)
Theorem C07_src_pin_feedback_new : pin_unchanged name_feedback_new.
Proof. exact pin_feedback_new. Qed.
Theorem C07_src_pin_parfile_copy : pin_unchanged name_parfile_copy.
Proof. exact pin_parfile_copy. Qed.
Theorem C07_src_pin_parblock_copy : pin_unchanged name_parblock_copy.
Proof. exact pin_parblock_copy. Qed.
Theorem C07_src_pin_main_main : pin_unchanged name_main_main.
Proof. exact pin_main_main. Qed.
(* parse_ignore only ever opens a REGULAR .gitignore (repair ed780e1: a FIFO of that name blocked the open forever) *)
Theorem C07_src_pin_paths_parse_ignore : pin_unchanged name_paths_parse_ignore.
Proof. exact pin_paths_parse_ignore. Qed.
(* the block-job closure (its zero-progress arms) *)
Theorem C07_src_pin_parblock_queue_file_range : pin_unchanged name_parblock_queue_file_range.
Proof. exact pin_parblock_queue_file_range. Qed.
Theorem C07_src_pin_parfile_copy_worker : pin_unchanged name_parfile_copy_worker.
Proof. exact pin_parfile_copy_worker. Qed.
Theorem C07_src_pin_parblock_dispatch_worker : pin_unchanged name_parblock_dispatch_worker.
Proof. exact pin_parblock_dispatch_worker. Qed.
(* every function on the path of a copy that contains a LOOP or a retry, or decides whether one is entered (the per-file
   constructors, the block queueing, the backup-name search over a directory), pinned token for token as validated: a new
   loop, retry or probe in any of them re-opens this obligation, and the run then looks for an input on which it does not end *)
Theorem C07_src_pin_parblock_queue_file_blocks : pin_unchanged name_parblock_queue_file_blocks.
Proof. exact pin_parblock_queue_file_blocks. Qed.
Theorem C07_src_pin_backup_get_backup_path : pin_unchanged name_backup_get_backup_path.
Proof. exact pin_backup_get_backup_path. Qed.
Theorem C07_src_pin_backup_next_backup_num : pin_unchanged name_backup_next_backup_num.
Proof. exact pin_backup_next_backup_num. Qed.
Theorem C07_src_pin_backup_ls_file_dir : pin_unchanged name_backup_ls_file_dir.
Proof. exact pin_backup_ls_file_dir. Qed.
Theorem C07_src_pin_backup_has_backup : pin_unchanged name_backup_has_backup.
Proof. exact pin_backup_has_backup. Qed.
Theorem C07_src_pin_backup_needs_backup : pin_unchanged name_backup_needs_backup.
Proof. exact pin_backup_needs_backup. Qed.
Theorem C07_src_pin_operations_new : pin_unchanged name_operations_new.
Proof. exact pin_operations_new. Qed.
Theorem C07_src_pin_operations_copy_file : pin_unchanged name_operations_copy_file.
Proof. exact pin_operations_copy_file. Qed.
Theorem C07_src_pin_operations_tree_walker : pin_unchanged name_operations_tree_walker.
Proof. exact pin_operations_tree_walker. Qed.
Theorem C07_src_pin_backup_is_num_backup : pin_unchanged name_backup_is_num_backup.
Proof. exact pin_backup_is_num_backup. Qed.
Theorem C07_src_pin_common_allocate_file : pin_unchanged name_common_allocate_file.
Proof. exact pin_common_allocate_file. Qed.
Theorem C07_src_pin_common_copy_owner : pin_unchanged name_common_copy_owner.
Proof. exact pin_common_copy_owner. Qed.
Theorem C07_src_pin_common_copy_permissions : pin_unchanged name_common_copy_permissions.
Proof. exact pin_common_copy_permissions. Qed.
Theorem C07_src_pin_common_copy_timestamps : pin_unchanged name_common_copy_timestamps.
Proof. exact pin_common_copy_timestamps. Qed.
Theorem C07_src_pin_common_copy_xattr : pin_unchanged name_common_copy_xattr.
Proof. exact pin_common_copy_xattr. Qed.
Theorem C07_src_pin_common_is_same_file : pin_unchanged name_common_is_same_file.
Proof. exact pin_common_is_same_file. Qed.
Theorem C07_src_pin_common_sync : pin_unchanged name_common_sync.
Proof. exact pin_common_sync. Qed.
Theorem C07_src_pin_feedback_send : pin_unchanged name_feedback_send.
Proof. exact pin_feedback_send. Qed.
Theorem C07_src_pin_linux_copy_file_bytes : pin_unchanged name_linux_copy_file_bytes.
Proof. exact pin_linux_copy_file_bytes. Qed.
Theorem C07_src_pin_linux_copy_file_offset : pin_unchanged name_linux_copy_file_offset.
Proof. exact pin_linux_copy_file_offset. Qed.
Theorem C07_src_pin_linux_copy_node : pin_unchanged name_linux_copy_node.
Proof. exact pin_linux_copy_node. Qed.
Theorem C07_src_pin_linux_lseek : pin_unchanged name_linux_lseek.
Proof. exact pin_linux_lseek. Qed.
Theorem C07_src_pin_linux_reflink : pin_unchanged name_linux_reflink.
Proof. exact pin_linux_reflink. Qed.
Theorem C07_src_pin_linux_try_copy_file_range : pin_unchanged name_linux_try_copy_file_range.
Proof. exact pin_linux_try_copy_file_range. Qed.
Theorem C07_src_pin_main_expand_globs : pin_unchanged name_main_expand_globs.
Proof. exact pin_main_expand_globs. Qed.
Theorem C07_src_pin_main_expand_sources : pin_unchanged name_main_expand_sources.
Proof. exact pin_main_expand_sources. Qed.
Theorem C07_src_pin_main_opts_check : pin_unchanged name_main_opts_check.
Proof. exact pin_main_opts_check. Qed.
Theorem C07_src_pin_mod_load_driver : pin_unchanged name_mod_load_driver.
Proof. exact pin_mod_load_driver. Qed.
Theorem C07_src_pin_operations_drop : pin_unchanged name_operations_drop.
Proof. exact pin_operations_drop. Qed.
Theorem C07_src_pin_operations_finalise_copy : pin_unchanged name_operations_finalise_copy.
Proof. exact pin_operations_finalise_copy. Qed.
Theorem C07_src_pin_parblock_new : pin_unchanged name_parblock_new.
Proof. exact pin_parblock_new. Qed.
Theorem C07_src_pin_parfile_new : pin_unchanged name_parfile_new.
Proof. exact pin_parfile_new. Qed.
Theorem C07_src_pin_paths_ignore_filter : pin_unchanged name_paths_ignore_filter.
Proof. exact pin_paths_ignore_filter. Qed.

Print Assumptions C07_parblock_no_deadlock.
Print Assumptions C07_parfile_no_deadlock.
Print Assumptions C07_parblock_bounded.
Print Assumptions C07_parfile_bounded.
Print Assumptions C07_exit_is_final.
Print Assumptions C07_parblock_detail_no_deadlock.
Print Assumptions C07_parblock_detail_steps.
Print Assumptions C07_parfile_detail_no_deadlock.
Print Assumptions C07_copy_bytes_bounded.
Print Assumptions C07_copy_bytes_fuel.
Print Assumptions C07_block_job_fuel.
Print Assumptions C07_block_job_bounded.
Print Assumptions C07_copy_sparse_terminates.
Print Assumptions C07_copy_sparse_before_repair_refuted.
Print Assumptions C07_copy_range_uspace_bounded.
Print Assumptions C07_copy_bytes_uspace_bounded.
Print Assumptions C07_src_copy_bytes_loop.
Print Assumptions C07_src_copy_sparse_loop.
Print Assumptions C07_src_copy_range_uspace_loop.
Print Assumptions C07_src_copy_bytes_uspace_loop.
Print Assumptions C07_src_workers_at_least_one.
Print Assumptions C07_src_parfile_copy_reports_every_thread.
Print Assumptions C07_src_parblock_copy_reports_every_thread.
Print Assumptions C07_src_error_update_reaches_exit.
Print Assumptions C07_src_exit_status.
Print Assumptions C07_src_model_main_step_is_translated_main.
Print Assumptions C07_src_model_driver_step_is_translated_copy.
Print Assumptions C07_only_a_fifo_at_the_destination_can_make_it_wait.
Print Assumptions C07_src_pin_feedback_new.
Print Assumptions C07_src_pin_parfile_copy.
Print Assumptions C07_src_pin_parblock_copy.
Print Assumptions C07_src_pin_main_main.
Print Assumptions C07_src_pin_paths_parse_ignore.
Print Assumptions C07_src_pin_parblock_queue_file_range.
Print Assumptions C07_src_pin_parfile_copy_worker.
Print Assumptions C07_src_pin_parblock_dispatch_worker.
Print Assumptions C07_src_pin_parblock_queue_file_blocks.
Print Assumptions C07_src_pin_backup_get_backup_path.
Print Assumptions C07_src_pin_backup_next_backup_num.
Print Assumptions C07_src_pin_backup_ls_file_dir.
Print Assumptions C07_src_pin_backup_has_backup.
Print Assumptions C07_src_pin_backup_needs_backup.
Print Assumptions C07_src_pin_operations_new.
Print Assumptions C07_src_pin_operations_copy_file.
Print Assumptions C07_src_pin_operations_tree_walker.
Print Assumptions C07_src_pin_backup_is_num_backup.
Print Assumptions C07_src_pin_common_allocate_file.
Print Assumptions C07_src_pin_common_copy_owner.
Print Assumptions C07_src_pin_common_copy_permissions.
Print Assumptions C07_src_pin_common_copy_timestamps.
Print Assumptions C07_src_pin_common_copy_xattr.
Print Assumptions C07_src_pin_common_is_same_file.
Print Assumptions C07_src_pin_common_sync.
Print Assumptions C07_src_pin_feedback_send.
Print Assumptions C07_src_pin_linux_copy_file_bytes.
Print Assumptions C07_src_pin_linux_copy_file_offset.
Print Assumptions C07_src_pin_linux_copy_node.
Print Assumptions C07_src_pin_linux_lseek.
Print Assumptions C07_src_pin_linux_reflink.
Print Assumptions C07_src_pin_linux_try_copy_file_range.
Print Assumptions C07_src_pin_main_expand_globs.
Print Assumptions C07_src_pin_main_expand_sources.
Print Assumptions C07_src_pin_main_opts_check.
Print Assumptions C07_src_pin_mod_load_driver.
Print Assumptions C07_src_pin_operations_drop.
Print Assumptions C07_src_pin_operations_finalise_copy.
Print Assumptions C07_src_pin_parblock_new.
Print Assumptions C07_src_pin_parfile_new.
Print Assumptions C07_src_pin_paths_ignore_filter.
