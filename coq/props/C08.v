(* C08 — --no-clobber never alters anything that already exists.
   Model after `fix: --no-clobber treats a dangling symlink as existing`
   (`dexists` is lstat-existence of the mapped target). *)
From Coq Require Import String.
From XcpModel Require Import Base Walker Meta Extracted DestMatrix.
(* XWalker is not cited below (the theorems about the walker's text evaluate it): it is required so that a change of the
   walker's dispatch, which it ties to act_of, re-opens this property *)
From XcpProofs Require Import WalkerProofs XWalker XConfig PinnedSource DestMatrixProofs.
From XcpPins Require Import Pin_parblock_new Pin_parfile_new Pin_mod_load_driver Pin_operations_new
  Pin_parfile_copy_worker Pin_parblock_dispatch_worker Pin_operations_tree_walker Pin_main_main
  Pin_backup_needs_backup Pin_operations_copy_file Pin_parblock_queue_file_blocks Pin_linux_copy_node
  Pin_common_is_same_file.

(* no operation (copy, link, mkdir, mknod) is ever emitted for a target that
   exists — in successful AND failing walks, for every tree and matcher *)
Theorem C08_noclobber_no_op_on_existing : forall cfg keep dex r t acts ok a q,
  w_no_clobber cfg = true -> walk cfg keep dex r t = (acts, ok) ->
  In a acts -> is_err a = false -> act_rel a = Some q -> dex q = false.
Proof. exact walk_noclobber_untouched. Qed.

(* a source entry mapping onto an existing destination entry makes the walk fail *)
Theorem C08_noclobber_collision_fails : forall cfg keep dex r t e,
  w_no_clobber cfg = true -> In e (sel_entries keep (w_deref cfg) r t) -> dex (e_rel e) = true ->
  snd (walk cfg keep dex r t) = false.
Proof. exact walk_noclobber_collision_fails. Qed.

(* frame: applying the emitted operations leaves every existing entry exactly
   as it was (directories may gain children) *)
Theorem C08_noclobber_frame : forall cfg keep r t acts ok (d : dmap),
  w_no_clobber cfg = true ->
  walk cfg keep (fun q => match d q with Some _ => true | None => false end) r t = (acts, ok) ->
  forall q k, d q = Some k -> apply_walk d acts q = Some k.
Proof.
  intros cfg keep r t acts ok d Hnc. apply (walk_noclobber_frame cfg keep _ r t acts ok d Hnc).
  intros q Hq. now destruct (d q).
Qed.

(* the worker-side check for special files *)
Theorem C08_special_worker_refuses : forall same umask src,
  special_worker true true same umask src = None.
Proof. reflexivity. Qed.

(* tie to the current source (translator): the no-clobber check precedes the dispatch, ends the walk, and
   probes the target with lstat (a dangling link counts as existing) *)
Theorem C08_src_noclobber_check :
  x_walker_noclobber_stops_before_dispatch = true /\
  x_walker_noclobber_condition = "config.no_clobber&&target.symlink_metadata().is_ok()"%string.
Proof. split; reflexivity. Qed.

(* Config::from(&Opts) is one struct literal with no `..default` tail, and every option other than the worker count
   and the block size reaches the library unchanged under its own name *)
Theorem C08_src_options_reach_config : forall f e, List.In (f, e) x_config_fields ->
  f <> "workers"%string -> f <> "block_size"%string -> e = ("opts." ++ f)%string.
Proof. exact x_config_fields_plain. Qed.

(* what xcp does with what it finds at the mapped destination (DestMatrix.v; every cell compared with the binary
   on every run) *)
Theorem C08_whatever_exists_is_refused : forall s d, d <> DAbsent -> dest_outcome s d ONoClobber = Refused.
Proof. exact noclobber_refuses_everything_existing. Qed.

(* an operand that is a symbolic link (no --dereference) is re-created as a link and NOT descended into: the walk is
   that one action (model), and the iterator follows a root link exactly when dereferencing (translated source) — what
   lies where the fresh link points, inside the destination or anywhere else, is never written through it *)
Theorem C08_link_operand_is_one_action : forall cfg keep dexists text res,
  w_deref cfg = false -> keep [] (tree_is_dir false (TLink text res)) = true ->
  walk cfg keep dexists [] (TLink text res) =
    if w_no_clobber cfg && dexists [] then ([WErr 1 []], false) else ([WLink [] text], true).
Proof. exact link_operand_is_one_action. Qed.

Theorem C08_src_root_link_followed_iff_deref :
  List.nth 2 x_walker_iterator ""%string = "follow_root_links(config.dereference)"%string.
Proof. reflexivity. Qed.

(* the glue functions on this property's path that its hand-written model mirrors, token for token as the model was
   validated against them (DESIGN.md 0.3, pinned glue): an edit of one of them re-opens its obligation *)
Theorem C08_src_pin_parblock_new : pin_unchanged name_parblock_new.
Proof. exact pin_parblock_new. Qed.
Theorem C08_src_pin_parfile_new : pin_unchanged name_parfile_new.
Proof. exact pin_parfile_new. Qed.
Theorem C08_src_pin_mod_load_driver : pin_unchanged name_mod_load_driver.
Proof. exact pin_mod_load_driver. Qed.
Theorem C08_src_pin_operations_new : pin_unchanged name_operations_new.
Proof. exact pin_operations_new. Qed.
Theorem C08_src_pin_parfile_copy_worker : pin_unchanged name_parfile_copy_worker.
Proof. exact pin_parfile_copy_worker. Qed.
Theorem C08_src_pin_parblock_dispatch_worker : pin_unchanged name_parblock_dispatch_worker.
Proof. exact pin_parblock_dispatch_worker. Qed.
Theorem C08_src_pin_operations_tree_walker : pin_unchanged name_operations_tree_walker.
Proof. exact pin_operations_tree_walker. Qed.
Theorem C08_src_pin_main_main : pin_unchanged name_main_main.
Proof. exact pin_main_main. Qed.
Theorem C08_src_pin_backup_needs_backup : pin_unchanged name_backup_needs_backup.
Proof. exact pin_backup_needs_backup. Qed.
Theorem C08_src_pin_operations_copy_file : pin_unchanged name_operations_copy_file.
Proof. exact pin_operations_copy_file. Qed.
Theorem C08_src_pin_parblock_queue_file_blocks : pin_unchanged name_parblock_queue_file_blocks.
Proof. exact pin_parblock_queue_file_blocks. Qed.
Theorem C08_src_pin_linux_copy_node : pin_unchanged name_linux_copy_node.
Proof. exact pin_linux_copy_node. Qed.
Theorem C08_src_pin_common_is_same_file : pin_unchanged name_common_is_same_file.
Proof. exact pin_common_is_same_file. Qed.

Print Assumptions C08_noclobber_no_op_on_existing.
Print Assumptions C08_noclobber_collision_fails.
Print Assumptions C08_noclobber_frame.
Print Assumptions C08_special_worker_refuses.
Print Assumptions C08_src_noclobber_check.
Print Assumptions C08_src_options_reach_config.
Print Assumptions C08_whatever_exists_is_refused.
Print Assumptions C08_link_operand_is_one_action.
Print Assumptions C08_src_root_link_followed_iff_deref.
Print Assumptions C08_src_pin_parblock_new.
Print Assumptions C08_src_pin_parfile_new.
Print Assumptions C08_src_pin_mod_load_driver.
Print Assumptions C08_src_pin_operations_new.
Print Assumptions C08_src_pin_parfile_copy_worker.
Print Assumptions C08_src_pin_parblock_dispatch_worker.
Print Assumptions C08_src_pin_operations_tree_walker.
Print Assumptions C08_src_pin_main_main.
Print Assumptions C08_src_pin_backup_needs_backup.
Print Assumptions C08_src_pin_operations_copy_file.
Print Assumptions C08_src_pin_parblock_queue_file_blocks.
Print Assumptions C08_src_pin_linux_copy_node.
Print Assumptions C08_src_pin_common_is_same_file.
