(* C09 — numbered backups never lose a version, for any name and history.
   Names are arbitrary byte strings (including non-UTF-8). *)
From Coq Require Import String.
From XcpModel Require Import Base Backup Extracted BackupRace DestMatrix.
From XcpProofs Require Import BaseProofs BackupProofs XBackup PinnedSource XState BackupRaceProofs DestMatrixProofs.
From XcpPins Require Import Pin_backup_get_backup_path Pin_backup_has_backup Pin_backup_is_num_backup
  Pin_operations_new Pin_backup_ls_file_dir Pin_backup_next_backup_num Pin_backup_needs_backup
  Pin_operations_tree_walker Pin_parfile_copy_worker Pin_parblock_dispatch_worker Pin_operations_drop
  Pin_operations_finalise_copy Pin_operations_copy_file Pin_parblock_queue_file_blocks Pin_common_is_same_file.

(* the number chosen exceeds every backup number present for that name, and
   the chosen backup name does not exist yet (so rename never replaces one) *)
Theorem C09_backup_number_fresh : forall base entries n,
  base <> [] -> next_backup_num base entries = Some n ->
  1 <= n /\
  (forall c k, In c entries -> is_num_backup base c = Some k -> k < n) /\
  ~ In (backup_name base n) entries.
Proof.
  intros base entries n Hb H. split; [exact (next_backup_num_pos H)|]. split.
  - intros c k. exact (next_backup_num_above H).
  - exact (next_backup_num_fresh Hb H).
Qed.

(* what counts as a backup of `base`: exactly `base.~<ASCII digits>~` with a
   u64 value — never a prefix-related or look-alike name — and every name xcp
   itself generates is recognised (for ALL byte strings) *)
Theorem C09_backup_names_exact : forall base,
  (forall cand k, is_num_backup base cand = Some k ->
     exists ds, cand = base ++ [DOT; TILDE] ++ ds ++ [TILDE] /\ parse_u64 ds = Some k /\ k < U64) /\
  (base <> [] -> forall n, n < U64 -> is_num_backup base (backup_name base n) = Some n).
Proof.
  intros base. split; [|intros Hb n; now apply backup_name_recognised].
  intros cand k H. pose proof (proj1 (is_num_backup_iff base cand k) H) as (_ & ds & -> & Hp).
  exists ds. split; [reflexivity|]. split; [exact Hp|now apply parse_u64_some in Hp].
Qed.

(* one overwrite: the new content is in place, the old version is preserved
   intact under a fresh, larger number, and NO other entry changes *)
Theorem C09_overwrite_preserves : forall mode d base c d' old,
  base <> [] -> overwrite mode d base c = Some d' -> dir_get d base = Some old ->
  dir_get d' base = Some c /\
  (forall m, m <> base -> forall v, dir_get d m = Some v -> dir_get d' m = Some v) /\
  (needs_backup mode true base (dir_names d) = true ->
     exists n, next_backup_num base (dir_names d) = Some n /\
               dir_get d (backup_name base n) = None /\
               dir_get d' (backup_name base n) = Some old /\
               (forall e k, In e (dir_names d) -> is_num_backup base e = Some k -> k < n) /\
               (forall m, m <> base -> m <> backup_name base n -> dir_get d' m = dir_get d m)) /\
  (needs_backup mode true base (dir_names d) = false ->
     forall m, m <> base -> dir_get d' m = dir_get d m).
Proof.
  intros mode d base c d' old Hb Ho Hold. pose proof (overwrite_get Ho) as G. rewrite Hold in G.
  split; [now rewrite G, name_eqb_refl|]. split; [intros m Hm v; now apply (overwrite_frame Hb Ho)|].
  split; intros Hn; rewrite Hn in G.
  - destruct (overwrite_backup_num Ho Hold Hn) as [n En]. rewrite En in G. exists n.
    pose proof (backup_name_neq base n) as Hne.
    split; [exact En|]. split; [exact (dir_get_notin d _ (next_backup_num_fresh Hb En))|].
    split; [now rewrite G, name_eqb_neq, name_eqb_refl|]. split; [intros e k; exact (next_backup_num_above En)|].
    intros m H1 H2. now rewrite G, !name_eqb_neq by congruence.
  - intros m Hm. rewrite G, name_eqb_neq by congruence. now destruct (next_backup_num base (dir_names d)).
Qed.

(* any history of overwrites (any modes, any contents): every entry other
   than the destination that ever existed keeps its content forever — in
   particular every backup, once made, is never modified or replaced *)
Theorem C09_history_never_touches_existing : forall base (hist : list (N * N)) d d',
  base <> [] ->
  fold_left (fun od mc => match od with Some x => overwrite (fst mc) x base (snd mc) | None => None end)
            hist (Some d) = Some d' ->
  forall m v, m <> base -> dir_get d m = Some v -> dir_get d' m = Some v.
Proof.
  intros base hist d d' Hb Hf m v Hm. revert Hf.
  apply (fold_option_inv (fun x mc => overwrite (fst mc) x base (snd mc)) (fun x => dir_get x m = Some v)).
  intros x mc x' Ho. now apply (overwrite_frame Hb Ho).
Qed.

(* auto mode: a backup is made exactly when a backup of THAT name exists *)
Theorem C09_auto_iff_backup_exists : forall base entries,
  needs_backup 1 true base entries = true <-> exists c k, In c entries /\ is_num_backup base c = Some k.
Proof. exact auto_iff_backup_exists. Qed.

(* kill at any instant of an overwrite: the old content is under the original
   or under the backup name *)
Theorem C09_kill_keeps_old : forall mode d base c steps old,
  base <> [] -> overwrite_steps mode d base c = Some steps -> dir_get d base = Some old ->
  needs_backup mode true base (dir_names d) = true ->
  exists n, next_backup_num base (dir_names d) = Some n /\
  forall s, In s steps -> dir_get s base = Some old \/ dir_get s (backup_name base n) = Some old.
Proof. intros mode d base c steps old _. apply overwrite_steps_keep_old. Qed.

(* guard kept visible: the only way to lose the number is u64 overflow *)
Theorem C09_no_overflow_below_max : forall base entries,
  (forall c k, In c entries -> is_num_backup base c = Some k -> k < U64MAX) ->
  exists n, next_backup_num base entries = Some n.
Proof. exact next_backup_num_defined. Qed.

(* non-vacuity, with a non-UTF-8 name and look-alikes around it *)
Example C09_nonvacuous :
  let base := [102; 255; 46; 116] in   (* f \xff . t *)
  let d := [(base, 1); (backup_name base 3, 2); (base ++ [98; 46; 126; 57; 126], 3)] in   (* f\xff.tb.~9~ is NOT a backup *)
  next_backup_num base (dir_names d) = Some 4 /\
  match overwrite 2 d base 7 with
  | Some d' => dir_get d' (backup_name base 4) = Some 1 /\ dir_get d' base = Some 7
  | None => False
  end.
Proof. vm_compute. repeat split. Qed.

(* tie to the current source (translator) *)
Theorem C09_src_next_number : forall base entries,
  next_backup_num base entries =
  (let n := x_next_backup_from_max (fold_right N.max x_backup_max_default (backup_nums base entries)) in
   if n <? U64 then Some n else None).
Proof. exact x_next_backup_ok. Qed.

(* the successor is checked in the source: at the largest number a u64 holds the step FAILS in every build (an unchecked
   `+ 1` wraps to 0 in a release build and the rename replaces `name.~0~`: defect 381a1cc, found in round 7, repaired) *)
Theorem C09_src_next_number_is_checked : x_next_backup_checked = true.
Proof. exact x_next_backup_checked_ok. Qed.

Theorem C09_src_suffix_pattern : x_backup_pattern = "^\~(\d+)\~$"%string.
Proof. exact x_backup_pattern_ok. Qed.

Theorem C09_src_needs_backup_table : forall mode ex base entries, mode < 3 ->
  needs_backup mode ex base entries = x_needs_backup mode ex (has_backup base entries).
Proof. exact x_needs_backup_ok. Qed.

(* nothing is carried from one file of a run to the next: the inventory of process-wide state (statics,
   thread-locals, umask calls) of the current source, regenerated by the translator on every run *)
Theorem C09_src_no_state_carried_between_files :
  x_static_items = ["libxcp/src/backup.rs::BAK_REGEX"; "libxcp/src/operations.rs::BACKUP_STEP"]%string /\ x_thread_locals = [] /\ x_umask_calls = 0%N.
Proof. exact x_process_wide_state_ok. Qed.

(* two workers of one run overwriting f and f.~1~ with numbered backups (BackupRace.v): with the backup step
   serialised (repair a649b3d; step codes 27/28 of CopyHandle::new) both orders end in the same directory with every
   old version preserved; without it, a scan falling into the other worker's gap loses a version *)
Theorem C09_backup_step_orders_agree : forall oldf oldb newf newb,
  snapshot (run newf newb (d_init oldf oldb) sched_AB) = snapshot (run newf newb (d_init oldf oldb) sched_BA) /\
  snapshot (run newf newb (d_init oldf oldb) sched_AB) = [Some newf; Some newb; Some oldf; None; Some oldb; None].
Proof. exact locked_overwrites_commute. Qed.

Theorem C09_backup_step_unserialised_refuted : exists oldf oldb newf newb,
  snapshot (run newf newb (d_init oldf oldb) sched_gap) <> snapshot (run newf newb (d_init oldf oldb) sched_AB).
Proof. exact unlocked_outcome_depends_on_schedule. Qed.

(* what xcp does with what it finds at the mapped destination (DestMatrix.v; every cell compared with the binary
   on every run) *)
Theorem C09_backup_preserves_what_a_file_replaces : forall d, d <> DAbsent ->
  dest_outcome SFile d OBackup = CreatedBackedUp \/ dest_outcome SFile d OBackup = Refused.
Proof. exact backup_preserves_what_a_file_replaces. Qed.

(* the glue functions on this property's path that its hand-written model mirrors, token for token as the model was
   validated against them (DESIGN.md 0.3, pinned glue): an edit of one of them re-opens its obligation *)
Theorem C09_src_pin_backup_get_backup_path : pin_unchanged name_backup_get_backup_path.
Proof. exact pin_backup_get_backup_path. Qed.
Theorem C09_src_pin_backup_has_backup : pin_unchanged name_backup_has_backup.
Proof. exact pin_backup_has_backup. Qed.
Theorem C09_src_pin_backup_is_num_backup : pin_unchanged name_backup_is_num_backup.
Proof. exact pin_backup_is_num_backup. Qed.
Theorem C09_src_pin_operations_new : pin_unchanged name_operations_new.
Proof. exact pin_operations_new. Qed.
Theorem C09_src_pin_backup_ls_file_dir : pin_unchanged name_backup_ls_file_dir.
Proof. exact pin_backup_ls_file_dir. Qed.
Theorem C09_src_pin_backup_next_backup_num : pin_unchanged name_backup_next_backup_num.
Proof. exact pin_backup_next_backup_num. Qed.
Theorem C09_src_pin_backup_needs_backup : pin_unchanged name_backup_needs_backup.
Proof. exact pin_backup_needs_backup. Qed.
Theorem C09_src_pin_operations_tree_walker : pin_unchanged name_operations_tree_walker.
Proof. exact pin_operations_tree_walker. Qed.
(* what happens to a destination AFTER its backup was made: the arms of both worker loops that run (and clean up after) a
   copy, and the finalisation run by the drop of the handle — pinned as validated: nothing there removes or renames an entry *)
Theorem C09_src_pin_parfile_copy_worker : pin_unchanged name_parfile_copy_worker.
Proof. exact pin_parfile_copy_worker. Qed.
Theorem C09_src_pin_parblock_dispatch_worker : pin_unchanged name_parblock_dispatch_worker.
Proof. exact pin_parblock_dispatch_worker. Qed.
Theorem C09_src_pin_operations_drop : pin_unchanged name_operations_drop.
Proof. exact pin_operations_drop. Qed.
Theorem C09_src_pin_operations_finalise_copy : pin_unchanged name_operations_finalise_copy.
Proof. exact pin_operations_finalise_copy. Qed.
Theorem C09_src_pin_operations_copy_file : pin_unchanged name_operations_copy_file.
Proof. exact pin_operations_copy_file. Qed.
Theorem C09_src_pin_parblock_queue_file_blocks : pin_unchanged name_parblock_queue_file_blocks.
Proof. exact pin_parblock_queue_file_blocks. Qed.
Theorem C09_src_pin_common_is_same_file : pin_unchanged name_common_is_same_file.
Proof. exact pin_common_is_same_file. Qed.

Print Assumptions C09_backup_number_fresh.
Print Assumptions C09_backup_names_exact.
Print Assumptions C09_overwrite_preserves.
Print Assumptions C09_history_never_touches_existing.
Print Assumptions C09_auto_iff_backup_exists.
Print Assumptions C09_kill_keeps_old.
Print Assumptions C09_no_overflow_below_max.
Print Assumptions C09_src_next_number.
Print Assumptions C09_src_next_number_is_checked.
Print Assumptions C09_src_suffix_pattern.
Print Assumptions C09_src_needs_backup_table.
Print Assumptions C09_src_no_state_carried_between_files.
Print Assumptions C09_backup_step_orders_agree.
Print Assumptions C09_backup_step_unserialised_refuted.
Print Assumptions C09_backup_preserves_what_a_file_replaces.
Print Assumptions C09_src_pin_backup_get_backup_path.
Print Assumptions C09_src_pin_backup_has_backup.
Print Assumptions C09_src_pin_backup_is_num_backup.
Print Assumptions C09_src_pin_operations_new.
Print Assumptions C09_src_pin_backup_ls_file_dir.
Print Assumptions C09_src_pin_backup_next_backup_num.
Print Assumptions C09_src_pin_backup_needs_backup.
Print Assumptions C09_src_pin_operations_tree_walker.
Print Assumptions C09_src_pin_parfile_copy_worker.
Print Assumptions C09_src_pin_parblock_dispatch_worker.
Print Assumptions C09_src_pin_operations_drop.
Print Assumptions C09_src_pin_operations_finalise_copy.
Print Assumptions C09_src_pin_operations_copy_file.
Print Assumptions C09_src_pin_parblock_queue_file_blocks.
Print Assumptions C09_src_pin_common_is_same_file.
