(* C19 — libfs sparse maps never hide data. *)
From XcpModel Require Import Base Extents Sparse Extracted.
From XcpProofs Require Import ExtentsProofs SparseProofs XExtents XLoops PinnedSource.
From XcpPins Require Import Pin_linux_lseek Pin_parblock_queue_file_blocks Pin_linux_copy_file_offset
  Pin_linux_try_copy_file_range.

(* merging never drops coverage (all lists of well-formed extents, sorted or not, any length) *)
Theorem C19_merge_covers : forall l i,
  Forall ext_wf l -> covered l i -> covered (merge_extents l) i.
Proof. exact merge_covers. Qed.

(* merged ranges begin and end at input boundaries *)
Theorem C19_merge_boundaries : forall l x,
  In x (merge_extents l) ->
  (exists a, In a l /\ e_start x = e_start a) /\
  (exists b, In b l /\ e_end x = e_end b).
Proof. exact merge_boundaries. Qed.

(* merging adds nothing but the one-byte gap between two consecutive
   inputs it deems adjacent (e.start = p.end + 1) *)
Theorem C19_merge_adds_only_gaps : forall l i,
  covered (merge_extents l) i ->
  covered l i \/
  exists l1 p e l2, l = l1 ++ p :: e :: l2 /\ e_start e = e_end p + 1 /\ i = e_end p.
Proof.
  intros l i H. destruct (merge_adds_only_gaps l i H) as [Hc|Hg]; [now left|right].
  now apply gap_bytes_spec.
Qed.

(* ordered and non-overlapping is preserved *)
Theorem C19_merge_sorted : forall l, sorted_disjoint l -> sorted_disjoint (merge_extents l).
Proof. exact merge_sorted. Qed.

(* FIEMAP paging: for ANY number of extents, the loop returns exactly the
   file's extent list (none lost or duplicated at page boundaries) *)
Theorem C19_map_extents_complete : forall L fuel,
  fexts_ok 0 L -> (length L < fuel)%nat ->
  map_extents fuel (kernel_fiemap L) = MxSome (map to_ext L).
Proof. exact map_extents_complete. Qed.

Theorem C19_map_extents_sorted_and_exact : forall L,
  fexts_ok 0 L ->
  sorted_disjoint (map to_ext L) /\
  forall i, covered (map to_ext L) i <-> fexts_cover L i.
Proof.
  intros L H. split; [now apply to_ext_sorted|intros i; apply to_ext_covers].
Qed.

(* extents, merged: still cover every extent byte *)
Theorem C19_merged_map_covers : forall L fuel i,
  fexts_ok 0 L -> (length L < fuel)%nat -> fexts_cover L i ->
  exists l, map_extents fuel (kernel_fiemap L) = MxSome l /\ covered (merge_extents l) i.
Proof.
  intros L fuel i HL Hf Hi. exists (map to_ext L). split; [now apply map_extents_complete|].
  apply merge_covers; [|now apply to_ext_covers].
  apply sorted_from_wf with (lo := 0). now apply to_ext_sorted.
Qed.

(* SEEK_DATA/SEEK_HOLE walk: for every layout, the segments reported are
   ordered, non-overlapping, inside the file, and their union is exactly
   the data set *)
Theorem C19_segments_cover_data : forall L len fuel,
  layout_ok 0 len L -> (length L + 1 < fuel)%nat ->
  exists segs,
    segments fuel (k_seek_data L len) (k_seek_hole L len) len = SegOk segs /\
    segs_sorted 0 segs /\
    (forall d h, In (d, h) segs -> h <= len) /\
    (forall i, seg_covers segs i <-> in_data L i).
Proof.
  intros L len fuel HL Hf. exists (expect_segs len 0 L).
  split; [now apply segments_spec|]. split; [now apply expect_segs_sorted|].
  split; [intros d h; now apply expect_segs_within|].
  intros i. now apply expect_segs_cover.
Qed.

(* non-vacuity: the hypotheses are met by concrete non-trivial inputs *)
Example C19_fexts_ok_example :
  fexts_ok 0 [mkFext 0 4096 false false; mkFext 8192 4096 false true; mkFext 1048576 12288 true false].
Proof. cbn. unfold fext_end; cbn. repeat split; lia || discriminate. Qed.

Example C19_layout_ok_example : layout_ok 0 20480 [(0, 4096); (8192, 12288); (16384, 20480)].
Proof. cbn. repeat split; lia. Qed.

(* sensitivity (kept next to the theorems so they are never quietly weakened) *)
Check merge_covers_needs_wf : exists l i, covered l i /\ ~ covered (merge_extents l) i.

Check merge_gap_is_added :
  exists l i, Forall ext_wf l /\ sorted_disjoint l /\ ~ covered l i /\ covered (merge_extents l) i.

(* ties to the current source: the model's definitions used above are EQUAL to what the translator (xlate/) extracts
   from the repository on this run *)
Theorem C19_src_merge_extents : forall l, x_merge_extents l = merge_extents l.
Proof. exact x_merge_extents_ok. Qed.

(* the translated request: it starts at byte 0 with no flags and its length reaches past every offset a file can have, for
   the first page and for every later one — so `cover every byte that is not a hole` is not cut short by the request *)
Theorem C19_src_fiemap_request_covers_the_file : forall start off,
  x_fiemap_req_start <= start -> start <= off -> off < 2 ^ 63 -> off < start + x_fiemap_req_length.
Proof. exact x_fiemap_request_covers_the_rest_of_the_file. Qed.

Theorem C19_src_fiemap_request_from_zero : x_fiemap_req_start = 0 /\ x_fiemap_req_flags = 0.
Proof. exact x_fiemap_request_starts_at_zero_unflagged. Qed.

Theorem C19_src_fiemap_page_and_eof : x_fiemap_page_size = N.of_nat FIEMAP_PAGE_SIZE /\ x_lseek_eof_errnos = [ENXIO].
Proof. split; [exact x_fiemap_page_size_ok|exact x_lseek_eof_ok]. Qed.

Theorem C19_src_next_sparse_segments : forall sd sh len pos, x_next_segment sd sh len pos = next_segment sd sh len pos.
Proof. exact x_next_segment_ok. Qed.

(* the FIEMAP paging loop of libfs::map_extents, translated from the current source (shape validated statement by
   statement: early `return Ok(None)`, the two `break`s, the per-extent record, the restart offset), is the model's loop *)
Theorem C19_src_map_extents_loop : forall fuel fiemap, x_map_extents fuel fiemap = map_extents fuel fiemap.
Proof. exact x_map_extents_ok. Qed.

(* the glue functions on this property's path that its hand-written model mirrors, token for token as the model was
   validated against them (DESIGN.md 0.3, pinned glue): an edit of one of them re-opens its obligation *)
Theorem C19_src_pin_linux_lseek : pin_unchanged name_linux_lseek.
Proof. exact pin_linux_lseek. Qed.
Theorem C19_src_pin_parblock_queue_file_blocks : pin_unchanged name_parblock_queue_file_blocks.
Proof. exact pin_parblock_queue_file_blocks. Qed.
Theorem C19_src_pin_linux_copy_file_offset : pin_unchanged name_linux_copy_file_offset.
Proof. exact pin_linux_copy_file_offset. Qed.
Theorem C19_src_pin_linux_try_copy_file_range : pin_unchanged name_linux_try_copy_file_range.
Proof. exact pin_linux_try_copy_file_range. Qed.

Print Assumptions C19_merge_covers.
Print Assumptions C19_merge_boundaries.
Print Assumptions C19_merge_adds_only_gaps.
Print Assumptions C19_merge_sorted.
Print Assumptions C19_map_extents_complete.
Print Assumptions C19_map_extents_sorted_and_exact.
Print Assumptions C19_merged_map_covers.
Print Assumptions C19_segments_cover_data.
Print Assumptions C19_src_merge_extents.
Print Assumptions C19_src_fiemap_request_covers_the_file.
Print Assumptions C19_src_fiemap_request_from_zero.
Print Assumptions C19_src_fiemap_page_and_eof.
Print Assumptions C19_src_next_sparse_segments.
Print Assumptions C19_src_map_extents_loop.
Print Assumptions C19_src_pin_linux_lseek.
Print Assumptions C19_src_pin_parblock_queue_file_blocks.
Print Assumptions C19_src_pin_linux_copy_file_offset.
Print Assumptions C19_src_pin_linux_try_copy_file_range.
