(* C20 — open descriptors stay bounded regardless of how many files are copied.

   A handle (two descriptors: source and destination) is open from
   CopyHandle::new until its last reference is dropped.  In parblock the
   holders of references are the jobs in the pool's bounded queue (at most Q,
   128 in the source), the jobs running on the W pool workers, and the
   dispatcher itself; in parfile each of the W workers holds at most one.
   Neither bound mentions the number of files. *)
(* String before Base, so that `length` below is List's *)
From Coq Require Import String.
From XcpModel Require Import Base ConcBlock ConcFile Extracted.
From XcpProofs Require Import ConcBlockProofs ConcFileProofs XBlocks XConfig PinnedSource XState.
From XcpPins Require Import Pin_parfile_copy_worker Pin_parblock_queue_file_range Pin_parblock_dispatch_worker
  Pin_operations_finalise_copy Pin_operations_drop Pin_parfile_copy Pin_parblock_copy Pin_operations_tree_walker
  Pin_operations_new Pin_operations_copy_file Pin_parblock_queue_file_blocks Pin_parblock_new Pin_parfile_new
  Pin_main_main.
Local Open Scope nat_scope.

Theorem C20_parblock_open_bound : forall W Q ops s, reachable W Q ops s -> length (b_open s) <= Q + W + 1.
Proof. exact reachable_open_bound. Qed.

Theorem C20_parfile_open_bound : forall W ops s, freachable W ops s -> length (f_run s) <= W.
Proof. exact parfile_open_bound. Qed.

(* with the source's queue length and at most 64 workers, two descriptors per
   handle, walkdir's (at most 10) directory handles and 16 descriptors of slack
   for stdio, the log and the progress bar stay below the default limit of 1024 *)
Theorem C20_default_limit : forall W ops s, W <= 64 -> reachable W 128 ops s ->
  2 * length (b_open s) + 10 + 16 <= 1024.
Proof. intros W ops s HW Hr. pose proof (reachable_open_bound W 128 ops s Hr). lia. Qed.

(* the bound is attained (so the measured peak in the correspondence check must
   EQUAL 2*(Q+W+1) when the workers are held): W = 1, Q = 1, three one-block files *)
Example C20_bound_attained :
  let s := run_sched 1 1 (init [OCopy [0]; OCopy [0]; OCopy [0]])
    [LWalk; LWalk; LWalk; LWalk; LDisp; LDisp; LTake; LDisp; LDisp; LDisp; LDisp; LDisp] in
  length (b_open s) = 3.
Proof. vm_compute. reflexivity. Qed.

(* ties to the current source: the model's definitions used above are EQUAL to what the translator (xlate/) extracts
   from the repository on this run *)
Theorem C20_src_pool_queue_len : x_pool_queue_len = 128%N.
Proof. exact x_pool_queue_len_ok. Qed.

(* the worker count both drivers start with is >= 1 whatever -w says (0 = one per CPU; a machine has >= 1): the
   hypothesis `1 <= W` of the driver theorems, from the two translated definitions *)
Theorem C20_src_workers_at_least_one : forall w ncpus, (1 <= ncpus)%N -> (1 <= x_num_workers (x_config_workers w ncpus) ncpus)%N.
Proof. exact x_workers_at_least_one. Qed.

(* nothing is carried from one file of a run to the next: the inventory of process-wide state (statics,
   thread-locals, umask calls) of the current source, regenerated by the translator on every run *)
Theorem C20_src_no_state_carried_between_files :
  x_static_items = ["libxcp/src/backup.rs::BAK_REGEX"; "libxcp/src/operations.rs::BACKUP_STEP"]%string /\ x_thread_locals = [] /\ x_umask_calls = 0%N.
Proof. exact x_process_wide_state_ok. Qed.

(* the glue functions on this property's path that its hand-written model mirrors, token for token as the model was
   validated against them (DESIGN.md 0.3, pinned glue): an edit of one of them re-opens its obligation *)
Theorem C20_src_pin_parfile_copy_worker : pin_unchanged name_parfile_copy_worker.
Proof. exact pin_parfile_copy_worker. Qed.
Theorem C20_src_pin_parblock_queue_file_range : pin_unchanged name_parblock_queue_file_range.
Proof. exact pin_parblock_queue_file_range. Qed.
Theorem C20_src_pin_parblock_dispatch_worker : pin_unchanged name_parblock_dispatch_worker.
Proof. exact pin_parblock_dispatch_worker. Qed.
Theorem C20_src_pin_operations_finalise_copy : pin_unchanged name_operations_finalise_copy.
Proof. exact pin_operations_finalise_copy. Qed.
Theorem C20_src_pin_operations_drop : pin_unchanged name_operations_drop.
Proof. exact pin_operations_drop. Qed.
Theorem C20_src_pin_parfile_copy : pin_unchanged name_parfile_copy.
Proof. exact pin_parfile_copy. Qed.
Theorem C20_src_pin_parblock_copy : pin_unchanged name_parblock_copy.
Proof. exact pin_parblock_copy. Qed.
Theorem C20_src_pin_operations_tree_walker : pin_unchanged name_operations_tree_walker.
Proof. exact pin_operations_tree_walker. Qed.
Theorem C20_src_pin_operations_new : pin_unchanged name_operations_new.
Proof. exact pin_operations_new. Qed.
Theorem C20_src_pin_operations_copy_file : pin_unchanged name_operations_copy_file.
Proof. exact pin_operations_copy_file. Qed.
Theorem C20_src_pin_parblock_queue_file_blocks : pin_unchanged name_parblock_queue_file_blocks.
Proof. exact pin_parblock_queue_file_blocks. Qed.
Theorem C20_src_pin_parblock_new : pin_unchanged name_parblock_new.
Proof. exact pin_parblock_new. Qed.
Theorem C20_src_pin_parfile_new : pin_unchanged name_parfile_new.
Proof. exact pin_parfile_new. Qed.
Theorem C20_src_pin_main_main : pin_unchanged name_main_main.
Proof. exact pin_main_main. Qed.

Print Assumptions C20_parblock_open_bound.
Print Assumptions C20_parfile_open_bound.
Print Assumptions C20_default_limit.
Print Assumptions C20_src_pool_queue_len.
Print Assumptions C20_src_workers_at_least_one.
Print Assumptions C20_src_no_state_carried_between_files.
Print Assumptions C20_src_pin_parfile_copy_worker.
Print Assumptions C20_src_pin_parblock_queue_file_range.
Print Assumptions C20_src_pin_parblock_dispatch_worker.
Print Assumptions C20_src_pin_operations_finalise_copy.
Print Assumptions C20_src_pin_operations_drop.
Print Assumptions C20_src_pin_parfile_copy.
Print Assumptions C20_src_pin_parblock_copy.
Print Assumptions C20_src_pin_operations_tree_walker.
Print Assumptions C20_src_pin_operations_new.
Print Assumptions C20_src_pin_operations_copy_file.
Print Assumptions C20_src_pin_parblock_queue_file_blocks.
Print Assumptions C20_src_pin_parblock_new.
Print Assumptions C20_src_pin_parfile_new.
Print Assumptions C20_src_pin_main_main.
