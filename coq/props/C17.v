(* C17 — --gitignore copies exactly the entries the root .gitignore does not
   exclude.  The walker theorem holds for EVERY matcher `keep` (the `ignore`
   crate's verdicts enter as a parameter): per-entry matching plus pruning at
   ignored directories implements "an excluded directory excludes everything
   beneath it, and nothing beneath it can be re-included".  That the crate's
   verdicts equal git's pattern semantics is validated differentially against
   `git check-ignore`, not proved. *)
From Coq Require Import String.
From XcpModel Require Import Base Walker Extracted.
From XcpProofs Require Import BaseProofs WalkerProofs XConfig PinnedSource.
From XcpPins Require Import Pin_paths_parse_ignore Pin_paths_ignore_filter Pin_main_main Pin_main_expand_sources
  Pin_operations_tree_walker Pin_main_expand_globs Pin_operations_new.

(* the walk = process the selected entries, in order, until the first failure *)
Theorem C17_walk_is_process_of_selected : forall cfg keep dex t r,
  walk cfg keep dex r t = process cfg dex (sel_entries keep (w_deref cfg) r t).
Proof. exact walk_process. Qed.

(* selected = the entries none of whose ancestors-or-self (from the source root
   down) is ignored; order preserved *)
Theorem C17_pruned_walk_spec : forall keep deref t r,
  sel_entries keep deref r t = filter (kept_from keep r) (entries deref r t).
Proof. exact sel_entries_filter. Qed.

(* in particular, from the source root: entry at path s (is_dir d) is copied iff
   keep accepts every proper ancestor (as a directory) and the entry itself *)
Theorem C17_selected_iff_no_ignored_ancestor : forall keep deref t q k d,
  In (q, k, d) (sel_entries keep deref [] t) <->
  In (q, k, d) (entries deref [] t) /\ kept_suffix keep [] q d = true.
Proof.
  intros. rewrite sel_entries_filter, filter_In. unfold kept_from. cbn [length skipn]. reflexivity.
Qed.

(* without the option nothing is filtered *)
Theorem C17_no_flag_no_filter : forall deref t r,
  sel_entries (fun _ _ => true) deref r t = entries deref r t.
Proof.
  intros. rewrite sel_entries_filter. apply filter_all. intros [[q k] d] _. apply kept_suffix_true.
Qed.

(* the source root itself is never filtered: whatever the matcher says about
   the root's own name, the root entry is selected (so a source whose name
   matches one of its own patterns is still copied) *)
Theorem C17_root_never_filtered : forall keep deref t,
  exists k d rest, sel_entries (root_kept keep) deref [] t = ([], k, d) :: rest.
Proof.
  intros keep deref t. rewrite sel_entries_eq. cbn [root_kept]. unfold node. eauto.
Qed.

Example C17_nonvacuous :
  let t := TDir [([97], TFile 3); ([98], TDir [([99], TFile 5); ([100], TFile 7)]); ([101], TFile 9)] in
  (* ignore directory b: c and d vanish with it even though the matcher would accept d *)
  let keep := fun (q : rel) (_ : bool) => negb (rel_eqb q [[98]]) in
  map (fun e => fst (fst e)) (sel_entries keep false [] t) = [[]; [[97]]; [[101]]].
Proof. vm_compute. reflexivity. Qed.

(* the `is_dir` flag the filter hands to the matcher is the type of the entry AS WALKED: without --dereference a symbolic link
   is never a directory for it, whatever it designates (git: a pattern `name/` matches a directory, never a symbolic link);
   with --dereference a link that resolves to a directory is walked, and filtered, as that directory (defect e0053b4) *)
Theorem C17_link_is_not_a_directory_for_the_filter : forall text res, tree_is_dir false (TLink text res) = false.
Proof. intros text [| |[len|cs|t r|ft|ft]]; reflexivity. Qed.

Theorem C17_followed_link_is_what_it_resolves_to : forall text res,
  tree_is_dir true (TLink text res) = match res with LTarget (TDir _) => true | _ => false end.
Proof. intros text [| |[len|cs|t r|ft|ft]]; reflexivity. Qed.

(* ... and the source asks the matcher exactly that: the walked entry's path and the walked entry's type; only the root passes unasked *)
Theorem C17_src_filter_asks_about_the_entry_as_walked :
  x_ignore_filter_query = ("entry.path()", "entry.file_type().is_dir()")%string /\
  x_ignore_filter_unasked = ["entry.depth()==0"]%string.
Proof. split; reflexivity. Qed.

(* tie to the current source (translator): the matcher is built per source and prunes the walk *)
Theorem C17_src_filter_and_per_source_matcher :
  nth 4 x_walker_iterator ""%string = "filter_entry(|e|ignore_filter(e,&gitignore))"%string /\
  nth 2 x_walker_source_prelude ""%string = "letgitignore=parse_ignore(&source,config)?;"%string.
Proof. split; reflexivity. Qed.

(* Config::from(&Opts) is one struct literal with no `..default` tail, and every option other than the worker count
   and the block size reaches the library unchanged under its own name *)
Theorem C17_src_options_reach_config : forall f e, List.In (f, e) x_config_fields ->
  f <> "workers"%string -> f <> "block_size"%string -> e = ("opts." ++ f)%string.
Proof. exact x_config_fields_plain. Qed.

(* the glue functions on this property's path that its hand-written model mirrors, token for token as the model was
   validated against them (DESIGN.md 0.3, pinned glue): an edit of one of them re-opens its obligation *)
Theorem C17_src_pin_paths_parse_ignore : pin_unchanged name_paths_parse_ignore.
Proof. exact pin_paths_parse_ignore. Qed.
Theorem C17_src_pin_paths_ignore_filter : pin_unchanged name_paths_ignore_filter.
Proof. exact pin_paths_ignore_filter. Qed.
Theorem C17_src_pin_main_main : pin_unchanged name_main_main.
Proof. exact pin_main_main. Qed.
Theorem C17_src_pin_main_expand_sources : pin_unchanged name_main_expand_sources.
Proof. exact pin_main_expand_sources. Qed.
Theorem C17_src_pin_operations_tree_walker : pin_unchanged name_operations_tree_walker.
Proof. exact pin_operations_tree_walker. Qed.
Theorem C17_src_pin_main_expand_globs : pin_unchanged name_main_expand_globs.
Proof. exact pin_main_expand_globs. Qed.
Theorem C17_src_pin_operations_new : pin_unchanged name_operations_new.
Proof. exact pin_operations_new. Qed.

Print Assumptions C17_walk_is_process_of_selected.
Print Assumptions C17_pruned_walk_spec.
Print Assumptions C17_selected_iff_no_ignored_ancestor.
Print Assumptions C17_no_flag_no_filter.
Print Assumptions C17_root_never_filtered.
Print Assumptions C17_link_is_not_a_directory_for_the_filter.
Print Assumptions C17_followed_link_is_what_it_resolves_to.
Print Assumptions C17_src_filter_asks_about_the_entry_as_walked.
Print Assumptions C17_src_filter_and_per_source_matcher.
Print Assumptions C17_src_options_reach_config.
Print Assumptions C17_src_pin_paths_parse_ignore.
Print Assumptions C17_src_pin_paths_ignore_filter.
Print Assumptions C17_src_pin_main_main.
Print Assumptions C17_src_pin_main_expand_sources.
Print Assumptions C17_src_pin_operations_tree_walker.
Print Assumptions C17_src_pin_main_expand_globs.
Print Assumptions C17_src_pin_operations_new.
