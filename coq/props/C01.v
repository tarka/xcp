(* C01 — exit 0 implies every copied regular file is byte-identical.
   Per-file theorems over the model of both drivers; the lift to whole runs
   (every selected file gets exactly one such copy) is C02/C06. *)
From Coq Require Import String Permutation.
From XcpModel Require Import Base Extents Sparse Blocks CopyLoop FileCopy Extracted ConcBlock ConcOutcome Ops
  DestMatrix.
From XcpProofs Require Import BlocksProofs CopyLoopProofs FileCopyProofs XBlocks XLoops XOps ConcOutcomeProofs
  PinnedSource XDrivers XExtents DestMatrixProofs.
From XcpPins Require Import Pin_main_main Pin_parblock_new Pin_parfile_new Pin_mod_load_driver
  Pin_linux_copy_file_bytes Pin_linux_copy_file_offset Pin_linux_try_copy_file_range Pin_operations_copy_file
  Pin_parblock_queue_file_blocks Pin_operations_new Pin_parfile_copy_worker Pin_parblock_dispatch_worker
  Pin_parblock_queue_file_range Pin_parfile_copy Pin_parblock_copy Pin_common_allocate_file Pin_linux_lseek
  Pin_linux_reflink Pin_operations_tree_walker.

(* nothing of a previous destination survives: after CopyHandle::new the
   destination has the source's length and reads zero everywhere, whatever was
   there before (absent, shorter, longer, any content) *)
Theorem C01_dest_fresh_after_new : forall old len i,
  fc_len (handle_new_dest old len) = len /\ fc_byte (handle_new_dest old len) i = 0.
Proof. exact handle_new_dest_fresh. Qed.

(* parblock's partition of a byte range into block jobs: for all range starts,
   lengths and block sizes >= 1 (including usize::MAX): blocks are non-empty, at
   most bs long, inside the range, cover it, are pairwise disjoint, and no u64
   intermediate overflows *)
Theorem C01_blocks_partition : forall start len bs,
  0 < bs ->
  (forall k, k < nblocks len bs ->
     1 <= blk_bytes len bs k <= bs /\
     start <= blk_off start bs k /\ blk_off start bs k + blk_bytes len bs k <= start + len) /\
  (forall i, start <= i < start + len ->
     exists k, k < nblocks len bs /\ blk_off start bs k <= i < blk_off start bs k + blk_bytes len bs k) /\
  (forall k1 k2 i, k1 < nblocks len bs -> k2 < nblocks len bs ->
     blk_off start bs k1 <= i < blk_off start bs k1 + blk_bytes len bs k1 ->
     blk_off start bs k2 <= i < blk_off start bs k2 + blk_bytes len bs k2 -> k1 = k2) /\
  (bs < U64 -> start + len < U64 -> forall k, k < nblocks len bs ->
     Forall (fun v => v < U64) (blk_intermediates start len bs k)).
Proof.
  intros start len bs Hbs. split; [|split; [|split]].
  - intros k Hk. now apply blk_within.
  - intros i Hi. now apply blk_cover.
  - intros k1 k2 i _ _. now apply blk_disjoint.
  - intros _ Hr k Hk. apply (Forall_impl _ (P := fun v => v <= start + len)); [lia|now apply blk_intermediates_le].
Qed.

(* the cursor loop of parfile: success with a kernel that never moves more than
   asked (any mix of full and short counts) means exactly [cur, cur+len) was
   transferred, aligned *)
Theorem C01_copy_bytes_exact : forall fuel bs len cur ans,
  let o := copy_bytes fuel bs len 0 cur ans in
  o_st o = StOk -> ans_bounded (o_trace o) ->
  total_moved (o_trace o) = len /\
  forall i, src_of (o_trace o) i = if (cur <=? i) && (i <? cur + len) then Some i else None.
Proof.
  intros fuel bs len cur ans o Hst Hb.
  destruct (copy_bytes_exact fuel bs len 0 cur ans ltac:(lia) Hst Hb) as (A1 & A2 & A3).
  split; [fold o in A2; lia|]. intros i. destruct (src_of_aligned i A1) as [S1 S2]. fold o in S1, S2, A3.
  destruct (N.leb_spec cur i); destruct (N.ltb_spec i (cur + len)); cbn [andb];
    first [apply S1; apply A3; lia | apply S2; rewrite A3; lia].
Qed.

(* parfile, one file: all sizes, block sizes, layouts, reflink auto/never/always
   when not cloned, every answer sequence within contract *)
Theorem C01_parfile_file : forall fuel bs m len sparse clone L ans src,
  layout_ok 0 len L -> (forall i, i < len -> ~ in_data L i -> src i = 0) ->
  let o := parfile_copy_file fuel bs m len sparse clone (k_seek_data L len) (k_seek_hole L len) ans in
  f_st o = StOk -> f_cloned o = false -> ans_bounded (f_trace o) ->
  forall i, i < len -> dst_byte (f_trace o) src i = src i.
Proof. exact parfile_file_bytes. Qed.

(* parblock, one file: additionally for every completion order of the jobs *)
Theorem C01_parblock_file : forall bs m len sparse clone mx ans src,
  0 < bs ->
  (sparse = false \/ mx = MxNone \/
   exists l, mx = MxSome l /\ Forall ext_wf l /\ forall i, i < len -> ~ covered l i -> src i = 0) ->
  let o := parblock_copy_file bs m len sparse clone mx ans in
  f_st o = StOk -> f_cloned o = false -> ans_bounded (f_trace o) ->
  forall tr', Permutation (f_trace o) tr' ->
  forall i, i < len -> dst_byte tr' src i = src i.
Proof. exact parblock_file_bytes. Qed.

(* parfile, not sparse: nothing is written at or beyond the source length *)
Theorem C01_parfile_nothing_beyond : forall fuel bs m len clone L ans i,
  layout_ok 0 len L ->
  let o := parfile_copy_file fuel bs m len false clone (k_seek_data L len) (k_seek_hole L len) ans in
  f_st o = StOk -> f_cloned o = false -> ans_bounded (f_trace o) ->
  len <= i -> src_of (f_trace o) i = None.
Proof.
  intros fuel bs m len clone L ans i HL o Hst Hc Hb Hi.
  destruct (parfile_file_exact fuel bs m len false clone L ans HL Hst Hc Hb i) as [Hd _].
  now apply (proj2 (Hd eq_refl)).
Qed.

(* non-vacuity: a concrete three-block copy with a short count succeeds *)
Example C01_nonvacuous :
  let o := parblock_copy_file 4096 RfNever 10000 false ClUnsup MxNone [XOk 4096; XOk 1000; XOk 3096; XOk 1808] in
  f_st o = StOk /\ f_cloned o = false /\ ans_boundedb (f_trace o) = true.
Proof. vm_compute. repeat split. Qed.

(* why the repair of the parblock block job was needed (pinned behaviour) *)
Check block_job_pinned_short_refuted.

(* ties to the current source: the model's definitions used above are EQUAL to what the translator (xlate/) extracts
   from the repository on this run *)
Theorem C01_src_block_partition : forall s e bs,
  range_jobs s (e - s) bs =
  map (fun k => (x_qfr_off s e bs (N.of_nat k), x_qfr_bytes s e bs (N.of_nat k))) (seq 0 (N.to_nat (x_qfr_blocks s e bs))).
Proof. exact x_qfr_jobs_ok. Qed.

Theorem C01_src_copy_bytes_loop : forall written len bs,
  x_copy_bytes_continue written len = negb (len <=? written) /\ x_copy_bytes_request written len bs = N.min (len - written) bs.
Proof. intros. split; [apply x_copy_bytes_continue_ok|apply x_copy_bytes_request_ok]. Qed.

Theorem C01_src_noprogress_block_size : forall bs,
  x_config_block_size true bs = U64MAX /\ x_config_block_size false bs = bs.
Proof. exact x_config_block_size_ok. Qed.

(* the lift to every interleaving of parblock: in EVERY schedule (any W, Q) that reaches the end, the
   blocks written for file h are pairwise distinct and every byte below `len` lies in exactly one of
   them — the per-block exactness above (C01_parblock_file) then gives the bytes *)
Theorem C01_every_schedule_every_byte_once : forall W Q ops s h len bsz,
  reachable W Q ops s -> final s = true -> 0 < bsz ->
  nth_error ops h = Some (OCopy (seq 0 (N.to_nat (nblocks len bsz)))) ->
  NoDup (blocks_of h (b_ev s)) /\
  forall i, i < len ->
    exists b, In b (blocks_of h (b_ev s)) /\
      blk_off 0 bsz (N.of_nat b) <= i < blk_off 0 bsz (N.of_nat b) + blk_bytes len bsz (N.of_nat b) /\
      forall b', In b' (blocks_of h (b_ev s)) ->
        blk_off 0 bsz (N.of_nat b') <= i < blk_off 0 bsz (N.of_nat b') + blk_bytes len bsz (N.of_nat b') -> b' = b.
Proof.
  intros W Q ops s h len bsz Hr Hf Hbs Hn.
  destruct (complete_copy (parblock_any_schedule W Q ops s Hr Hf) Hn) as (bs & Eph & H).
  rewrite phase_blocks, Eph by now rewrite Eph. cbn [phase_writes]. split.
  - exact (Permutation_NoDup (Permutation_sym H) (seq_NoDup _ _)).
  - intros i Hi. apply (blocks_tile 0); [assumption| |lia].
    intros b Hb. apply (Permutation_in _ (Permutation_sym H)), in_seq. lia.
Qed.

Theorem C01_src_new_and_copy_file_order :
  x_copy_new_steps = copy_new_steps /\ x_copy_file_steps = copy_file_steps /\ x_queue_file_blocks_steps = queue_file_blocks_steps.
Proof. split; [exact x_copy_new_steps_ok|split; [exact x_copy_file_steps_ok|exact x_queue_file_blocks_steps_ok]]. Qed.

(* CopyHandle::copy_bytes (the parfile cursor loop), translated from the current source, is the model's loop *)
Theorem C01_src_copy_bytes_whole_loop : forall fuel bs len cur ans,
  x_copy_bytes fuel len bs cur ans = copy_bytes fuel bs len 0 cur ans.
Proof. exact x_copy_bytes_ok. Qed.

(* main(), translated (the update loop and the join): an Error update anywhere in the stream makes the exit status
   non-zero whatever the driver thread returns — the only report of a failed block job of parblock *)
Theorem C01_src_error_update_reaches_exit : forall s1 e s2 handle,
  x_main_collect (s1 ++ XuError e :: s2) handle <> None.
Proof. exact x_error_update_reaches_exit. Qed.

Theorem C01_src_exit_status : forall stats handle,
  x_main_collect stats handle = None <-> has_error stats = false /\ handle = None.
Proof. exact x_main_collect_ok_iff. Qed.

(* the block job of parblock, translated: a failing kernel copy and a premature end of the source each send an Error
   update (the job's only report), which the translated main() turns into a non-zero exit status *)
Theorem C01_src_block_job_reports_failure :
  x_block_job_arms = [("Ok(0)ifoff+done>=harc.metadata.len()", 0); ("Ok(0)", 1); ("Ok(copied)", 2); ("Err(e)", 1)]%string%N.
Proof. exact x_block_job_arms_ok. Qed.

(* libfs::map_extents, translated: EVERY extent the kernel reports becomes a range to copy (none is filtered by its
   flags) — parblock copies exactly the merged ranges of a sparse-looking file *)
Theorem C01_src_map_extents_loop : forall fuel fiemap, x_map_extents fuel fiemap = map_extents fuel fiemap.
Proof. exact x_map_extents_ok. Qed.

(* the destination's parent directory is missing: refused for every source kind whose creating call cannot make the
   ancestors (a failed step, never `the source vanished`); compared with the binary on every run *)
Theorem C01_parent_missing_refused_unless_directory : forall s, s <> SDir -> parent_missing_outcome s = Refused.
Proof. exact parent_missing_refused_unless_directory. Qed.

(* the glue functions on this property's path that its hand-written model mirrors, token for token as the model was
   validated against them (DESIGN.md 0.3, pinned glue): an edit of one of them re-opens its obligation *)
Theorem C01_src_pin_main_main : pin_unchanged name_main_main.
Proof. exact pin_main_main. Qed.
Theorem C01_src_pin_parblock_new : pin_unchanged name_parblock_new.
Proof. exact pin_parblock_new. Qed.
Theorem C01_src_pin_parfile_new : pin_unchanged name_parfile_new.
Proof. exact pin_parfile_new. Qed.
Theorem C01_src_pin_mod_load_driver : pin_unchanged name_mod_load_driver.
Proof. exact pin_mod_load_driver. Qed.
Theorem C01_src_pin_linux_copy_file_bytes : pin_unchanged name_linux_copy_file_bytes.
Proof. exact pin_linux_copy_file_bytes. Qed.
Theorem C01_src_pin_linux_copy_file_offset : pin_unchanged name_linux_copy_file_offset.
Proof. exact pin_linux_copy_file_offset. Qed.
Theorem C01_src_pin_linux_try_copy_file_range : pin_unchanged name_linux_try_copy_file_range.
Proof. exact pin_linux_try_copy_file_range. Qed.
Theorem C01_src_pin_operations_copy_file : pin_unchanged name_operations_copy_file.
Proof. exact pin_operations_copy_file. Qed.
Theorem C01_src_pin_parblock_queue_file_blocks : pin_unchanged name_parblock_queue_file_blocks.
Proof. exact pin_parblock_queue_file_blocks. Qed.
Theorem C01_src_pin_operations_new : pin_unchanged name_operations_new.
Proof. exact pin_operations_new. Qed.
Theorem C01_src_pin_parfile_copy_worker : pin_unchanged name_parfile_copy_worker.
Proof. exact pin_parfile_copy_worker. Qed.
Theorem C01_src_pin_parblock_dispatch_worker : pin_unchanged name_parblock_dispatch_worker.
Proof. exact pin_parblock_dispatch_worker. Qed.
Theorem C01_src_pin_parblock_queue_file_range : pin_unchanged name_parblock_queue_file_range.
Proof. exact pin_parblock_queue_file_range. Qed.
Theorem C01_src_pin_parfile_copy : pin_unchanged name_parfile_copy.
Proof. exact pin_parfile_copy. Qed.
Theorem C01_src_pin_parblock_copy : pin_unchanged name_parblock_copy.
Proof. exact pin_parblock_copy. Qed.
Theorem C01_src_pin_common_allocate_file : pin_unchanged name_common_allocate_file.
Proof. exact pin_common_allocate_file. Qed.
Theorem C01_src_pin_linux_lseek : pin_unchanged name_linux_lseek.
Proof. exact pin_linux_lseek. Qed.
Theorem C01_src_pin_linux_reflink : pin_unchanged name_linux_reflink.
Proof. exact pin_linux_reflink. Qed.
Theorem C01_src_pin_operations_tree_walker : pin_unchanged name_operations_tree_walker.
Proof. exact pin_operations_tree_walker. Qed.

Print Assumptions C01_dest_fresh_after_new.
Print Assumptions C01_blocks_partition.
Print Assumptions C01_copy_bytes_exact.
Print Assumptions C01_parfile_file.
Print Assumptions C01_parblock_file.
Print Assumptions C01_parfile_nothing_beyond.
Print Assumptions C01_src_block_partition.
Print Assumptions C01_src_copy_bytes_loop.
Print Assumptions C01_src_noprogress_block_size.
Print Assumptions C01_every_schedule_every_byte_once.
Print Assumptions C01_src_new_and_copy_file_order.
Print Assumptions C01_src_copy_bytes_whole_loop.
Print Assumptions C01_src_error_update_reaches_exit.
Print Assumptions C01_src_exit_status.
Print Assumptions C01_src_block_job_reports_failure.
Print Assumptions C01_src_map_extents_loop.
Print Assumptions C01_parent_missing_refused_unless_directory.
Print Assumptions C01_src_pin_main_main.
Print Assumptions C01_src_pin_parblock_new.
Print Assumptions C01_src_pin_parfile_new.
Print Assumptions C01_src_pin_mod_load_driver.
Print Assumptions C01_src_pin_linux_copy_file_bytes.
Print Assumptions C01_src_pin_linux_copy_file_offset.
Print Assumptions C01_src_pin_linux_try_copy_file_range.
Print Assumptions C01_src_pin_operations_copy_file.
Print Assumptions C01_src_pin_parblock_queue_file_blocks.
Print Assumptions C01_src_pin_operations_new.
Print Assumptions C01_src_pin_parfile_copy_worker.
Print Assumptions C01_src_pin_parblock_dispatch_worker.
Print Assumptions C01_src_pin_parblock_queue_file_range.
Print Assumptions C01_src_pin_parfile_copy.
Print Assumptions C01_src_pin_parblock_copy.
Print Assumptions C01_src_pin_common_allocate_file.
Print Assumptions C01_src_pin_linux_lseek.
Print Assumptions C01_src_pin_linux_reflink.
Print Assumptions C01_src_pin_operations_tree_walker.
