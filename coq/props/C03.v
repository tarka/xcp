(* C03 — sources and bystander files are never modified, even by self-copies or
   kills.  Model after `fix: refuse to copy a file onto itself through an
   alias` (CopyHandle::new) and the inode check in main's validation. *)
From XcpModel Require Import Base Meta Ops Extracted.
From XcpProofs Require Import OpsProofs XOps PinnedSource.
From XcpPins Require Import Pin_operations_new Pin_common_is_same_file Pin_parfile_copy_worker
  Pin_parblock_dispatch_worker Pin_operations_tree_walker Pin_main_main Pin_main_expand_sources Pin_linux_copy_node
  Pin_backup_get_backup_path Pin_operations_finalise_copy Pin_operations_drop Pin_operations_copy_file
  Pin_parblock_queue_file_blocks.

(* every key a copy operation can change — in any prefix of its execution,
   i.e. wherever it is killed or fails — is its own target or that target's
   numbered backup; never a source, never another entry *)
Theorem C03_writes_only_mapped : forall fc src dst e n a k,
  In a (firstn n (fst (copy_actions fc src dst e))) -> In k (mutated a) -> owned dst k.
Proof. exact copy_prefix_mutations_owned. Qed.

Theorem C03_source_only_read : forall fc src dst e a k,
  In a (fst (copy_actions fc src dst e)) -> In k (mutated a) -> is_src k = false.
Proof. exact copy_never_mutates_source. Qed.

(* links and special files: same *)
Theorem C03_link_special_only_mapped :
  (forall dst text a k, In a (link_actions dst text) -> In k (mutated a) -> owned dst k) /\
  (forall nc src dst ex same a k, In a (fst (special_actions nc src dst ex same)) -> In k (mutated a) -> owned dst k).
Proof. exact link_special_mutations_owned. Qed.

(* ... and a special file whose existing target IS the source node (reached through a symlinked directory) is refused
   before any mutating action — it used to be unlinked (repair in round 3) *)
Theorem C03_special_no_self_unlink : forall nc src dst,
  snd (special_actions nc src dst true true) = false /\
  forall a, In a (fst (special_actions nc src dst true true)) -> mutated a = [].
Proof. exact special_alias_refused. Qed.

(* nothing is created THROUGH a dangling symbolic link found at the destination (the file would appear wherever the
   link points — a bystander location): refused before any mutating action *)
Theorem C03_no_write_through_dangling_link : forall fc src dst e,
  ce_dst_exists e = false ->
  snd (copy_actions_d true fc src dst e) = false /\
  forall a, In a (fst (copy_actions_d true fc src dst e)) -> mutated a = [].
Proof. exact copy_dangling_refused. Qed.

(* an operation whose target denotes the source itself (same device+inode,
   however it is spelled: ./f, d/../f, symlink, hard link) is refused before
   ANY mutating action: nothing is truncated, renamed or created *)
Theorem C03_no_self_overwrite : forall fc src dst e,
  ce_dst_exists e = true -> ce_same_file e = true ->
  snd (copy_actions fc src dst e) = false /\
  forall a, In a (fst (copy_actions fc src dst e)) -> mutated a = [].
Proof. exact copy_alias_refused. Qed.

(* an overwrite of an existing destination that is not the source, with backup 3: it succeeds, in 15 actions *)
Example C03_nonvacuous :
  let e := mkEnv true false (Some 3) 10 false true [(0, 10)] 1 in
  snd (copy_actions (mkFin false false true true) [[97]] [[98]] e) = true /\
  length (fst (copy_actions (mkFin false false true true) [[97]] [[98]] e)) = 15%nat.
Proof. vm_compute. split; reflexivity. Qed.

(* tie to the current source (translator): the order of the steps of CopyHandle::new — in particular the
   same-file check (23) and the dangling-link check (26: lstat of a destination the probe called absent) come after
   the probe of the destination (22) and BEFORE the first mutating step (rename 1, create+truncate 2, size 3) *)
Theorem C03_src_copy_new_order : x_copy_new_steps = [20; 21; 22; 23; 98; 26; 98; 26; 29; 98; 27; 97; 24; 25; 1; 2; 28; 3]%N.
Proof. exact x_copy_new_steps_ok. Qed.

(* the glue functions on this property's path that its hand-written model mirrors, token for token as the model was
   validated against them (DESIGN.md 0.3, pinned glue): an edit of one of them re-opens its obligation *)
Theorem C03_src_pin_operations_new : pin_unchanged name_operations_new.
Proof. exact pin_operations_new. Qed.
Theorem C03_src_pin_common_is_same_file : pin_unchanged name_common_is_same_file.
Proof. exact pin_common_is_same_file. Qed.
Theorem C03_src_pin_parfile_copy_worker : pin_unchanged name_parfile_copy_worker.
Proof. exact pin_parfile_copy_worker. Qed.
Theorem C03_src_pin_parblock_dispatch_worker : pin_unchanged name_parblock_dispatch_worker.
Proof. exact pin_parblock_dispatch_worker. Qed.
Theorem C03_src_pin_operations_tree_walker : pin_unchanged name_operations_tree_walker.
Proof. exact pin_operations_tree_walker. Qed.
Theorem C03_src_pin_main_main : pin_unchanged name_main_main.
Proof. exact pin_main_main. Qed.
Theorem C03_src_pin_main_expand_sources : pin_unchanged name_main_expand_sources.
Proof. exact pin_main_expand_sources. Qed.
Theorem C03_src_pin_linux_copy_node : pin_unchanged name_linux_copy_node.
Proof. exact pin_linux_copy_node. Qed.
Theorem C03_src_pin_backup_get_backup_path : pin_unchanged name_backup_get_backup_path.
Proof. exact pin_backup_get_backup_path. Qed.
Theorem C03_src_pin_operations_finalise_copy : pin_unchanged name_operations_finalise_copy.
Proof. exact pin_operations_finalise_copy. Qed.
Theorem C03_src_pin_operations_drop : pin_unchanged name_operations_drop.
Proof. exact pin_operations_drop. Qed.
Theorem C03_src_pin_operations_copy_file : pin_unchanged name_operations_copy_file.
Proof. exact pin_operations_copy_file. Qed.
Theorem C03_src_pin_parblock_queue_file_blocks : pin_unchanged name_parblock_queue_file_blocks.
Proof. exact pin_parblock_queue_file_blocks. Qed.

Print Assumptions C03_writes_only_mapped.
Print Assumptions C03_source_only_read.
Print Assumptions C03_link_special_only_mapped.
Print Assumptions C03_special_no_self_unlink.
Print Assumptions C03_no_write_through_dangling_link.
Print Assumptions C03_no_self_overwrite.
Print Assumptions C03_src_copy_new_order.
Print Assumptions C03_src_pin_operations_new.
Print Assumptions C03_src_pin_common_is_same_file.
Print Assumptions C03_src_pin_parfile_copy_worker.
Print Assumptions C03_src_pin_parblock_dispatch_worker.
Print Assumptions C03_src_pin_operations_tree_walker.
Print Assumptions C03_src_pin_main_main.
Print Assumptions C03_src_pin_main_expand_sources.
Print Assumptions C03_src_pin_linux_copy_node.
Print Assumptions C03_src_pin_backup_get_backup_path.
Print Assumptions C03_src_pin_operations_finalise_copy.
Print Assumptions C03_src_pin_operations_drop.
Print Assumptions C03_src_pin_operations_copy_file.
Print Assumptions C03_src_pin_parblock_queue_file_blocks.
