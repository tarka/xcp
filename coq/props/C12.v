(* C12 — progress updates are truthful, never exceed 100%, and the stream ends.
   (That the stream ends is observed by the runs and stated by no theorem; sizes summing to the selected files is
   the walker's theorem in C02.) *)
From Coq Require Import String.
From XcpModel Require Import Base CopyLoop Updater ConcBlock Extracted Ops.
From XcpProofs Require Import CopyLoopProofs UpdaterProofs ConcBlockProofs XUpdater PinnedSource XState XOps.
(* required, not imported: its has_error is not the Updater.has_error of the statements below *)
From XcpProofs Require XDrivers.
From XcpPins Require Import Pin_feedback_send Pin_parfile_copy Pin_parblock_copy Pin_parfile_copy_worker
  Pin_parblock_queue_file_range Pin_feedback_new Pin_operations_new Pin_operations_copy_file
  Pin_operations_tree_walker Pin_parblock_dispatch_worker Pin_parblock_queue_file_blocks Pin_operations_drop
  Pin_parfile_new Pin_parblock_new.

(* batching (ChannelUpdater): for EVERY send order and block size, what is
   delivered never reports more copied bytes than were passed to send; Size and
   Error updates are never dropped *)
Theorem C12_batching_sound : forall bs sends sent,
  sum_copied (chan_deliver bs sent sends) <= sum_copied sends /\
  sum_size (chan_deliver bs sent sends) = sum_size sends /\
  has_error (chan_deliver bs sent sends) = has_error sends.
Proof. exact chan_deliver_bounds. Qed.

(* ... and what the client has seen after any prefix of the sends is a prefix
   of the final stream *)
Theorem C12_delivery_is_prefix_monotone : forall bs a b sent,
  exists sent', chan_deliver bs sent (a ++ b) = chan_deliver bs sent a ++ chan_deliver bs sent' b.
Proof. exact chan_deliver_app. Qed.

(* Copied values are exactly the kernel's return values, sent after the call:
   a loop never reports more than it was asked to copy, whatever its outcome
   (success, error, oracle of any shape within `never more than asked`) *)
Theorem C12_copy_bytes_reports_le_len : forall fuel bs len cur ans,
  let tr := o_trace (copy_bytes fuel bs len 0 cur ans) in
  ans_bounded tr -> sumN (copied_updates tr) = total_moved tr /\ total_moved tr <= len.
Proof.
  intros fuel bs len cur ans tr Hb. split; [apply copied_updates_total|].
  exact (proj1 (copy_bytes_total fuel bs len 0 cur ans) (N.le_0_l len) Hb).
Qed.

Theorem C12_block_job_reports_le_block : forall fuel flen off bytes ans,
  let tr := o_trace (block_job fuel flen off bytes 0 ans) in
  ans_bounded tr -> sumN (copied_updates tr) = total_moved tr /\ total_moved tr <= bytes.
Proof.
  intros fuel flen off bytes ans tr Hb. split; [apply copied_updates_total|].
  exact (proj1 (block_job_total fuel flen off bytes 0 ans) (N.le_0_l bytes) Hb).
Qed.

(* never above the announced total, at every prefix of every interleaving:
   if per file the reported bytes stay within the announced size in every
   prefix (the protocol fact: Size is sent before the operation is queued and a
   file's transfers total at most its length), then globally
   sum(Copied) <= sum(Size) at every prefix — for any number of files/threads *)
Theorem C12_prefix_bound : forall l, log_ok l ->
  forall p s, l = p ++ s -> g_copied p <= g_size p.
Proof. intros l Hok p s E. apply per_file_bound_sums, (Hok p s E). Qed.

(* ... and after batching *)
Corollary C12_prefix_bound_delivered : forall bs l, log_ok l ->
  forall p s, l = p ++ s ->
  sum_copied (chan_deliver bs 0 (map gev_update p)) <= sum_size (chan_deliver bs 0 (map gev_update p)).
Proof.
  intros bs l Hok p s E. destruct (chan_deliver_bounds bs (map gev_update p) 0) as (A & B & _).
  pose proof (per_file_bound_sums p (Hok p s E)) as H. unfold g_copied, g_size in H. lia.
Qed.

(* the protocol fact behind `log_ok`, for EVERY interleaving of parblock: no event of a file (open,
   block written = Copied update, finalise) occurs before the walker's step that announced its Size
   and sent it (handles are numbered in the walker's send order; b_next counts the sends) *)
Theorem C12_size_before_copied : forall W Q ops s, reachable W Q ops s ->
  forall e, In e (b_ev s) -> (ev_handle e < b_next s)%nat.
Proof. exact events_after_walk. Qed.

Example C12_nonvacuous :
  chan_deliver 100 0 [USize 250; UCopied 60; UCopied 60; UCopied 60; UError; UCopied 70]
  = [USize 250; UCopied 60; UError; UCopied 70].
Proof. vm_compute. reflexivity. Qed.

(* ties to the current source: the model's definitions used above are EQUAL to what the translator (xlate/) extracts
   from the repository on this run *)
Theorem C12_src_send_condition : forall bs sent b,
  chan_send bs sent (UCopied b) = (sent + b, if x_send_cond sent b bs then [UCopied b] else []).
Proof. exact x_send_cond_ok. Qed.

(* a zero-byte kernel answer ends a block job successfully only at/after the end of the source, measured from the
   CURRENT position (off + done), not from the end of the requested block: anything earlier sends an Error update *)
Theorem C12_src_premature_end_is_error : forall flen off done,
  x_block_job_zero_is_end flen off done = (flen <=? off + done).
Proof. reflexivity. Qed.

Theorem C12_src_size_before_copy_is_queued :
  In (0, [0; 1]) x_walker_dispatch.
Proof. vm_compute. now left. Qed.

(* nothing is carried from one file of a run to the next: the inventory of process-wide state (statics,
   thread-locals, umask calls) of the current source, regenerated by the translator on every run *)
Theorem C12_src_no_state_carried_between_files :
  x_static_items = ["libxcp/src/backup.rs::BAK_REGEX"; "libxcp/src/operations.rs::BACKUP_STEP"]%string /\ x_thread_locals = [] /\ x_umask_calls = 0%N.
Proof. exact x_process_wide_state_ok. Qed.

(* CopyHandle::copy_file, translated: ONE pass over the data — a clone attempt, else the sparse walk or the plain
   loop, whose error is returned (`?`), never retried (a second pass would report the same bytes twice) *)
Theorem C12_src_copy_file_single_pass : x_copy_file_steps = copy_file_steps.
Proof. exact x_copy_file_steps_ok. Qed.

(* Driver::copy, translated (the joins): the call returns Ok exactly when the walker and EVERY worker (parfile) /
   the walker and the dispatcher (parblock) returned Ok: no thread's error is dropped, whichever thread it is *)
Theorem C12_src_parfile_copy_reports_every_thread : forall walk workers,
  x_parfile_copy_result walk workers = None <-> walk = None /\ List.Forall (fun r => r = None) workers.
Proof. exact XDrivers.x_parfile_copy_ok_iff. Qed.

Theorem C12_src_parblock_copy_reports_every_thread : forall walk disp,
  x_parblock_copy_result walk disp = None <-> walk = None /\ disp = None.
Proof. exact XDrivers.x_parblock_copy_ok_iff. Qed.

(* the worker loops, translated: every kind of operation returns its failure from the worker (Copy and Link also send
   an Error update; a special file's only report is the worker's result), and nothing else happens on a failure path *)
Theorem C12_src_every_failure_is_returned :
  forall routes, List.In routes [x_parfile_error_routes; x_parblock_error_routes] ->
  List.map fst routes = [0; 1; 2]%N /\ forall k r, List.In (k, r) routes -> List.In 2%N r /\ ~ List.In 99%N r.
Proof. exact XDrivers.x_every_failure_is_returned. Qed.

(* the glue functions on this property's path that its hand-written model mirrors, token for token as the model was
   validated against them (DESIGN.md 0.3, pinned glue): an edit of one of them re-opens its obligation *)
Theorem C12_src_pin_feedback_send : pin_unchanged name_feedback_send.
Proof. exact pin_feedback_send. Qed.
Theorem C12_src_pin_parfile_copy : pin_unchanged name_parfile_copy.
Proof. exact pin_parfile_copy. Qed.
Theorem C12_src_pin_parblock_copy : pin_unchanged name_parblock_copy.
Proof. exact pin_parblock_copy. Qed.
Theorem C12_src_pin_parfile_copy_worker : pin_unchanged name_parfile_copy_worker.
Proof. exact pin_parfile_copy_worker. Qed.
Theorem C12_src_pin_parblock_queue_file_range : pin_unchanged name_parblock_queue_file_range.
Proof. exact pin_parblock_queue_file_range. Qed.
Theorem C12_src_pin_feedback_new : pin_unchanged name_feedback_new.
Proof. exact pin_feedback_new. Qed.
Theorem C12_src_pin_operations_new : pin_unchanged name_operations_new.
Proof. exact pin_operations_new. Qed.
Theorem C12_src_pin_operations_copy_file : pin_unchanged name_operations_copy_file.
Proof. exact pin_operations_copy_file. Qed.
Theorem C12_src_pin_operations_tree_walker : pin_unchanged name_operations_tree_walker.
Proof. exact pin_operations_tree_walker. Qed.
Theorem C12_src_pin_parblock_dispatch_worker : pin_unchanged name_parblock_dispatch_worker.
Proof. exact pin_parblock_dispatch_worker. Qed.
Theorem C12_src_pin_parblock_queue_file_blocks : pin_unchanged name_parblock_queue_file_blocks.
Proof. exact pin_parblock_queue_file_blocks. Qed.
Theorem C12_src_pin_operations_drop : pin_unchanged name_operations_drop.
Proof. exact pin_operations_drop. Qed.
Theorem C12_src_pin_parfile_new : pin_unchanged name_parfile_new.
Proof. exact pin_parfile_new. Qed.
Theorem C12_src_pin_parblock_new : pin_unchanged name_parblock_new.
Proof. exact pin_parblock_new. Qed.

Print Assumptions C12_batching_sound.
Print Assumptions C12_delivery_is_prefix_monotone.
Print Assumptions C12_copy_bytes_reports_le_len.
Print Assumptions C12_block_job_reports_le_block.
Print Assumptions C12_prefix_bound.
Print Assumptions C12_prefix_bound_delivered.
Print Assumptions C12_size_before_copied.
Print Assumptions C12_src_send_condition.
Print Assumptions C12_src_premature_end_is_error.
Print Assumptions C12_src_size_before_copy_is_queued.
Print Assumptions C12_src_no_state_carried_between_files.
Print Assumptions C12_src_copy_file_single_pass.
Print Assumptions C12_src_parfile_copy_reports_every_thread.
Print Assumptions C12_src_parblock_copy_reports_every_thread.
Print Assumptions C12_src_every_failure_is_returned.
Print Assumptions C12_src_pin_feedback_send.
Print Assumptions C12_src_pin_parfile_copy.
Print Assumptions C12_src_pin_parblock_copy.
Print Assumptions C12_src_pin_parfile_copy_worker.
Print Assumptions C12_src_pin_parblock_queue_file_range.
Print Assumptions C12_src_pin_feedback_new.
Print Assumptions C12_src_pin_operations_new.
Print Assumptions C12_src_pin_operations_copy_file.
Print Assumptions C12_src_pin_operations_tree_walker.
Print Assumptions C12_src_pin_parblock_dispatch_worker.
Print Assumptions C12_src_pin_parblock_queue_file_blocks.
Print Assumptions C12_src_pin_operations_drop.
Print Assumptions C12_src_pin_parfile_new.
Print Assumptions C12_src_pin_parblock_new.
